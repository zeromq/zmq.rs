(** C14 - Dropping a pending recv loses nothing and leaves the socket usable.  Property theorems only.
    A future can be dropped only at an await that returned Pending.  For the six fair-queue sockets
    the only such point in recv is the fair queue's poll_next having returned Pending. *)
From ZV Require Import Base.Bytes Base.Res Model.Codec Model.FairQueue Model.World Proofs.FairQueueProofs Proofs.SocketProofs.

(** structure re-read from the source: REQ recv does not take the marker before awaiting *)
Theorem C14_gen_structure : Gen.req_recv_takes_marker = 0 /\ Gen.req_recv_clears_marker = 2.
Proof. split; reflexivity. Qed.
Print Assumptions C14_gen_structure.

(** whenever poll_next is not running (in particular whenever it has returned Pending) no stream is
    checked out: the queue holds every stream, so dropping the recv future drops nothing *)
Theorem C14_fq_idle_holds_nothing : forall q, f_pc q = Idle -> checked_out q = None.
Proof. intros q H. unfold checked_out. rewrite H. reflexivity. Qed.
Print Assumptions C14_fq_idle_holds_nothing.

Theorem C14_fq_parked_is_idle : forall q, reachable q -> f_parked q = true -> f_pc q = Idle.
Proof. exact fq_parked_is_idle. Qed.
Print Assumptions C14_fq_parked_is_idle.

(** items are accounted for at every point of every schedule, hence also across abandoned polls *)
Theorem C14_nothing_lost_across_polls : forall b ls q es k,
  FairQueue.run (fq0 b) ls = (q, es) ->
  delivered k es ++ in_flight q k ++ s_items (the_src q k) = arrived k ls.
Proof. exact fq_exactly_once_in_order. Qed.
Print Assumptions C14_nothing_lost_across_polls.

(** REQ: a recv that is still pending (and may be dropped) leaves the socket owing that recv *)
Theorem C14_req_still_owes : forall w w', w_type w = REQ -> World.step w ORecv = ([BRecvPending], w') ->
  w_cur w' = w_cur w /\ w_peers w' = w_peers w /\ w_rr w' = w_rr w.
Proof.
  intros w w' Ht H. apply (step_recv_req_inv w _ _ Ht) in H.
  destruct (w_cur w) as [k|] eqn:Hc; [|rewrite (recv_req_idle w Hc) in H; discriminate].
  rewrite <- Hc. exact (proj2 (recv_req_spec w k _ _ Hc H)).
Qed.
Print Assumptions C14_req_still_owes.

(** ... so a later send is refused until the reply has been received *)
Theorem C14_req_send_refused_while_owing : forall w k m, w_type w = REQ -> w_cur w = Some k ->
  World.step w (OSend m) = ([BSendErr EReturnToSender (Some m)], w).
Proof. exact req_send_out_of_turn. Qed.
Print Assumptions C14_req_send_refused_while_owing.
