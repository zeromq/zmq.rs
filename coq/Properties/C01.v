(** C01 - Message framing conforms to ZMTP 3.0 and round-trips exactly.
    Property theorems only; the lemmas they rest on are in Proofs/. *)
From ZV Require Import Base.Bytes Base.Res Spec.Rfc23 Model.Codec Proofs.CodecEnc Proofs.CodecRoundtrip.
From Coq Require Import Permutation.

(** The constants the code uses are the RFC's (Gen.Src is regenerated from /repo on every run). *)
Theorem C01_gen_constants :
  Gen.enc_flag_more = 1 /\ Gen.enc_flag_long = 2 /\ Gen.enc_short_max = 255 /\ Gen.enc_short_max2 = 255 /\
  Gen.enc_long_width = 8 /\ Gen.enc_short_width = 1 /\ Gen.enc_more_on_all_but_last = 1 /\
  Gen.cmd_flag_short = 4 /\ Gen.cmd_flag_long = 6 /\ Gen.cmd_short_max = 255 /\ Gen.cmd_long_width = 8 /\
  Gen.cmd_nlen_width = 1 /\ Gen.cmd_vlen_width = 4.
Proof. repeat split; reflexivity. Qed.
Print Assumptions C01_gen_constants.

(** Every well-formed message (>= 1 frame, any frame length below 2^64) is emitted as bytes that the
    independent RFC 23 parser reads back as exactly that message with nothing left over. *)
Theorem C01_encode_is_rfc : forall m, wf_msg m ->
  exists bs, encode_msg m = Ok bs /\ rfc_message bs = Some (m, []).
Proof.
  intros m [Hne Hall]. exists (encode_frames m). split.
  - destruct m; [congruence|reflexivity].
  - unfold rfc_message. rewrite <- (app_nil_r (encode_frames m)) at 2.
    apply rfc_message_fuel_encode; try assumption.
    pose proof (encode_frames_length m). lia.
Qed.
Print Assumptions C01_encode_is_rfc.

(** Header shape: one-byte size exactly for bodies of at most 255 bytes, eight-byte big-endian otherwise. *)
Theorem C01_size_width : forall more f,
  encode_frame more f =
    if lenN f <=? 255 then [if more then 1 else 0; lenN f] ++ f
    else ((if more then 3 else 2) :: be 8 (lenN f)) ++ f.
Proof. exact encode_frame_shape. Qed.
Print Assumptions C01_size_width.

(** No extra or missing bytes. *)
Theorem C01_length : forall m, length (encode_frames m) = wire_len m.
Proof. exact encode_length. Qed.
Print Assumptions C01_length.

(** Frame by frame: MORE on every frame but the last, minimal size fields, bodies verbatim. *)
Theorem C01_frames : forall m, Forall frame_ok m ->
  rfc_frames (encode_frames m) = Some (wire_frames m) /\
  map wf_body (wire_frames m) = m /\
  forallb rfc_minimal_size (wire_frames m) = true /\
  (m <> [] -> map wf_more (wire_frames m) = repeat true (length m - 1) ++ [false]).
Proof.
  intros m H. split; [exact (encode_frames_rfc_frames m H)|].
  split; [exact (wire_frames_bodies m)|]. split; [exact (wire_frames_minimal m)|exact (wire_frames_more m)].
Qed.
Print Assumptions C01_frames.

(** Greeting: RFC well-formed for every greeting value; parses back; default is the 64 literal octets. *)
Theorem C01_greeting_wf : forall g, rfc_greeting_wf (encode_greeting g) = true.
Proof. intros [a b [] []]; vm_compute; reflexivity. Qed.
Print Assumptions C01_greeting_wf.

Theorem C01_greeting_fields : forall g,
  rfc_greeting_version (encode_greeting g) = (g_major g, g_minor g) /\
  rfc_greeting_mech (encode_greeting g) = mech_name (g_mech g).
Proof. intros [a b [] []]; vm_compute; split; reflexivity. Qed.
Print Assumptions C01_greeting_fields.

Theorem C01_greeting_roundtrip : forall g, parse_greeting (encode_greeting g) = Ok g.
Proof. exact greeting_roundtrip. Qed.
Print Assumptions C01_greeting_roundtrip.

Theorem C01_greeting_default :
  encode_greeting default_greeting = [255; 0; 0; 0; 0; 0; 0; 0; 0; 127; 3; 0; 78; 85; 76; 76] ++ repeat 0 48.
Proof. vm_compute. reflexivity. Qed.
Print Assumptions C01_greeting_default.

(** READY: for every socket type, with or without Identity (<= 255 bytes), in every property order
    (the HashMap's iteration order is not fixed): a well-formed RFC command frame carrying exactly
    those properties, with the short / long command size rule. *)
Theorem C01_ready_wf : forall st idopt props',
  Permutation props' (ready_props st idopt) -> id_ok idopt ->
  rfc_command (encode_ready props') = Some (ascii_READY, props').
Proof. exact ready_lib_is_rfc. Qed.
Print Assumptions C01_ready_wf.

(** C01's last clause: the library decodes what it encoded, under any segmentation *)
Theorem C01_lib_roundtrip : forall m chunks, wf_msg m ->
  concat chunks = encode_greeting default_greeting ++ encode_frames m ->
  lib_items chunks false = [OItem (IGreeting default_greeting); OItem (IMessage m)].
Proof.
  intros m chunks [Hne Hall] Hc. rewrite chunks_eq_spec, Hc, spec_items_greeting.
  rewrite <- (app_nil_r (encode_frames m)) at 2.
  rewrite spec_frames_encode_app; [|assumption|assumption|].
  - destruct (_ - _)%nat; reflexivity.
  - rewrite app_length. pose proof (encode_frames_length m). lia.
Qed.
Print Assumptions C01_lib_roundtrip.

