(** C10 - round-robin senders deliver each message to exactly one peer, in rotation.  Property theorems only. *)
From ZV Require Import Base.Bytes Base.Res Model.Codec Model.World Proofs.SocketProofs.
From ZV Require Proofs.PushDistribution.

(** no live peer in the rotation: the send fails, hands the message back intact, writes nothing *)
Theorem C10_no_peer : forall fuel w m, w_type w <> REQ -> (forall k, In k (w_rr w) -> memN k (w_peers w) = false) ->
  exists w', send_rr fuel w m = (BSendErr EReturnToSender (Some m), w') /\ w_conns w' = w_conns w /\ w_peers w' = w_peers w.
Proof. intros fuel w m _ H. exact (send_rr_no_live_peer fuel w m H). Qed.
Print Assumptions C10_no_peer.

(** a successful send writes the whole message to the head of the rotation, which moves to the tail *)
Theorem C10_head_gets_it : forall fuel w m k rest, w_type w <> REQ -> w_rr w = k :: rest -> memN k (w_peers w) = true ->
  send_rr (S fuel) w m = (BSendOk, write_msg (with_rr (with_rr w rest) (rest ++ [k])) k m).
Proof.
  intros fuel w m k rest Ht Hr Hm. rewrite (WorldBasics.send_rr_head fuel w m k rest Hr Hm).
  destruct (w_type w); try reflexivity. congruence.
Qed.
Print Assumptions C10_head_gets_it.

Theorem C10_exactly_one_wire : forall w k m j, j <> k ->
  get_conn j (w_conns (write_msg w k m)) = get_conn j (w_conns w).
Proof. exact write_msg_others_unchanged. Qed.
Print Assumptions C10_exactly_one_wire.

(** strict rotation: with a duplicate-free rotation of live peers, n consecutive sends reach the n
    members in order, each getting exactly its message, and the rotation is restored *)
Theorem C10_rotation : forall w ms, w_type w <> REQ -> conns_ok w -> NoDup (w_rr w) ->
  (forall k, In k (w_rr w) -> memN k (w_peers w) = true /\ exists c, get_conn k (w_conns w) = Some c) ->
  length ms = length (w_rr w) ->
  exists w', sends w ms = (map (fun _ => BSendOk) ms, w') /\ w_rr w' = w_rr w /\ w_peers w' = w_peers w /\
    (forall i k m, nth_error (w_rr w) i = Some k -> nth_error ms i = Some m ->
       exists c c', get_conn k (w_conns w) = Some c /\ get_conn k (w_conns w') = Some c' /\ c_wire c' = c_wire c ++ encode_frames m).
Proof. intros w ms Ht _ Hnd Hlive Hlen. exact (rr_full_rotation w ms Ht Hnd Hlive Hlen). Qed.
Print Assumptions C10_rotation.

(** a peer that joins later enters the rotation, at the tail *)
Theorem C10_late_joiner : forall w c ann, w_type w = PUSH \/ w_type w = DEALER ->
  w_rr (do_attach w c ann) = w_rr w ++ [c] /\ memN c (w_peers (do_attach w c ann)) = true.
Proof.
  intros w c ann Ht. destruct (WorldBasics.do_attach_tables w c ann) as (_ & P & R & _).
  rewrite P, R, WorldBasics.memN_snoc, N.eqb_refl, orb_true_r. destruct Ht as [-> | ->]; split; reflexivity.
Qed.
Print Assumptions C10_late_joiner.

(** closed form over whole histories: a PUSH or DEALER socket with n connected peers writes message number i
    (from 0), whole, to peer number (i mod n) in joining order - every message to exactly one peer, in strict rotation *)
Theorem C10_distribution : forall t cs ms,
  t = PUSH \/ t = DEALER -> NoDup cs -> cs <> [] ->
  World.run (world0 t) (map (fun c => OAttach c None) cs ++ map OSend ms ++ map OWire cs) =
  map (fun c => BAtt c None) cs ++ repeat BSendOk (length ms) ++
  map (fun ic => BWire (snd ic) (concat (map encode_frames (PushDistribution.share (fst ic) (length cs) ms)))) (combine (seq 0 (length cs)) cs).
Proof. exact PushDistribution.push_distributes. Qed.
Print Assumptions C10_distribution.

(** * The same loop over connections that answer each write from their own script (Model/RrSend.v):
      partial writes, transient back-pressure, write errors, Ok(0), connections that stop accepting.
      ([World.send_rr] above is the loop over connections that accept every write.) *)
From ZV Require Import Model.TrySend Model.RrSend Proofs.RrSendProofs.

(** the code sites this model rests on, re-read from src/backend.rs on every run: the identity popped from the rotation is
    held by a guard that re-queues it when dropped, created before the first await, disarmed when the peer is gone or
    its write failed *)
Theorem C10_gen_structure :
  Gen.Src.rr_guard_requeues_on_drop = 1 /\ Gen.Src.rr_guard_before_await = 1 /\ Gen.Src.rr_guard_disarmed_on_error = 1 /\
  Gen.Src.rr_queue_holds_identity_once = 1 /\ Gen.Src.rr_backends_use_that_queue = 1.
Proof. repeat split; reflexivity. Qed.
Print Assumptions C10_gen_structure.

(** the framed writer neither loses nor invents bytes, whatever the connection answers *)
Theorem C10_writer_stream : forall fuel s r s', flush_all fuel s = (r, s') ->
  k_written s' ++ k_buf s' = k_written s ++ k_buf s.
Proof. intros fuel s r s' H. apply TrySendProofs.drains_stream. eapply flush_all_drains. exact H. Qed.
Print Assumptions C10_writer_stream.

(** a send touches at most one connection, whatever its outcome *)
Theorem C10_faulty_touches_one : forall st m r st', RrSend.send st m = (r, st') -> forall j, targets j r = false ->
  wire_of j st' = wire_of j st /\ pget j (r_peers st') = pget j (r_peers st).
Proof. exact send_touches_one. Qed.
Print Assumptions C10_faulty_touches_one.

(** success = the whole message on the wire of a peer the socket holds, nothing left buffered *)
Theorem C10_faulty_ok_whole : forall st m k st', RrSend.send st m = (ROk k, st') ->
  exists p, pget k (r_peers st) = Some p /\
    (k_buf (p_sink p) = [] ->
       wire_of k st' = wire_of k st ++ encode_frames m /\
       exists p', pget k (r_peers st') = Some p' /\ k_buf (p_sink p') = []).
Proof. exact send_ok_whole. Qed.
Print Assumptions C10_faulty_ok_whole.

(** a write failure forgets the peer (table and rotation); at most a prefix of the message went out, to it alone *)
Theorem C10_faulty_err_forgets : forall st m k e st', RrSend.send st m = (RErr k e, st') ->
  NoDup (map p_id (r_peers st)) -> NoDup (r_rr st) ->
  pget k (r_peers st') = None /\ ~ In k (r_rr st') /\
  (forall p, pget k (r_peers st) = Some p -> k_buf (p_sink p) = [] ->
     exists w rest, encode_frames m = w ++ rest /\ wire_of k st' = wire_of k st ++ w).
Proof. exact send_err_forgets. Qed.
Print Assumptions C10_faulty_err_forgets.

Theorem C10_faulty_nopeer : forall st m st', RrSend.send st m = (RNoPeer, st') ->
  r_peers st' = r_peers st /\ r_gone st' = r_gone st /\ r_rr st' = [] /\
  (forall k, In k (r_rr st) -> pget k (r_peers st) = None).
Proof.
  intros st m st' H.
  apply send_post in H as [(Hall & _ & ->)|(pre & k & rest & p & e & s & _ & _ & _ & _ & Hr & _)].
  - auto.
  - destruct e; discriminate.
Qed.
Print Assumptions C10_faulty_nopeer.

(** stale entries only ever leave the rotation, and a message is never given to a peer the socket has let go of *)
Theorem C10_faulty_rotation_shrinks : forall st m r st', RrSend.send st m = (r, st') ->
  (forall j, In j (r_rr st') -> In j (r_rr st)) /\
  (forall k, targets k r = true -> pget k (r_peers st) <> None).
Proof. exact send_rotation_shrinks. Qed.
Print Assumptions C10_faulty_rotation_shrinks.

(** a send that is abandoned while its connection does not accept keeps the peer and its turn order: the peer goes to
    the tail of the rotation like after a completed send *)
Theorem C10_faulty_stall_keeps_turn : forall st m k st', RrSend.send st m = (RStall k, st') ->
  pget k (r_peers st') <> None /\
  exists skipped rest, r_rr st = skipped ++ k :: rest /\ r_rr st' = rest ++ [k] /\
    (forall j, In j skipped -> pget j (r_peers st) = None).
Proof. exact send_stall_keeps_turn. Qed.
Print Assumptions C10_faulty_stall_keeps_turn.

(** a full round over accepting connections reaches every peer once, in queue order, and restores the queue *)
Theorem C10_faulty_full_round : forall ms st, all_accepting st -> NoDup (r_rr st) ->
  (forall k, In k (r_rr st) -> pget k (r_peers st) <> None) ->
  length ms = length (r_rr st) -> Forall (fun m => lenN (encode_frames m) < 2 ^ 63) ms ->
  fst (rrun st (map RSend ms)) = map ROk (r_rr st) /\ r_rr (snd (rrun st (map RSend ms))) = r_rr st.
Proof. intros ms st Ha _. exact (rr_full_round ms st Ha). Qed.
Print Assumptions C10_faulty_full_round.

(** * Every reachable state - any history of attaches (including a peer that re-joins under its identity while an entry of
      that identity is still queued), losses, script changes and sends *)
(** the rotation never holds an identity twice, nor does the table, and every peer of the table is queued *)
Theorem C10_faulty_reachable_inv : forall ops rs st, rrun rstate0 ops = (rs, st) ->
  NoDup (r_rr st) /\ NoDup (map p_id (r_peers st)) /\ (forall p, In p (r_peers st) -> In (p_id p) (r_rr st)).
Proof. exact rr_reachable_inv. Qed.
Print Assumptions C10_faulty_reachable_inv.

(** a peer that re-joins while an entry of its identity is still queued takes that entry over *)
Theorem C10_faulty_rejoin_takes_over : forall st k, In k (r_rr st) ->
  r_rr (snd (rstep st (RAttach k))) = r_rr st /\ pget k (r_peers (snd (rstep st (RAttach k)))) <> None.
Proof.
  intros st k Hk. cbn [rstep snd r_rr r_peers]. apply WorldBasics.memN_In in Hk. unfold World.memN in Hk. rewrite Hk.
  split; [reflexivity|]. rewrite pget_app. destruct (pget k (pdel k (r_peers st))); [discriminate|].
  cbn [pget p_id]. rewrite N.eqb_refl. discriminate.
Qed.
Print Assumptions C10_faulty_rejoin_takes_over.

(** strict rotation in EVERY reachable state: with n peers whose connections accept, n consecutive sends reach the n peers,
    each exactly once, in queue order (stale entries are skipped) *)
Theorem C10_faulty_strict_rotation : forall ops rs st ms, rrun rstate0 ops = (rs, st) ->
  all_accepting st -> length ms = length (r_peers st) ->
  Forall (fun m => lenN (encode_frames m) < 2 ^ 63) ms ->
  let live := filter (is_live st) (r_rr st) in
  fst (rrun st (map RSend ms)) = map ROk live /\ NoDup live /\
  (forall p, In p (r_peers st) -> In (p_id p) live) /\ length live = length (r_peers st).
Proof. exact rr_strict_rotation. Qed.
Print Assumptions C10_faulty_strict_rotation.

(** every history of attaches, losses, script changes and sends: what is on connection k's wire is a prefix of the
    concatenation of exactly the messages the loop gave to k, in order - and all of it when no send to k failed or stalled *)
Theorem C10_faulty_history_prefix : forall ops rs st, NoDup (attached ops) -> rrun rstate0 ops = (rs, st) ->
  forall k, exists tail, wire_of k st ++ tail = concat (map encode_frames (assigned k ops rs)).
Proof.
  intros ops rs st Hnd Hrun k. exists (residue k st). apply (hist_from_start ops rs st Hnd Hrun k).
Qed.
Print Assumptions C10_faulty_history_prefix.

Theorem C10_faulty_history_complete : forall ops rs st, NoDup (attached ops) -> rrun rstate0 ops = (rs, st) ->
  forall k, (forall r, In r rs -> targets k r = true -> r = ROk k) ->
  wire_of k st = concat (map encode_frames (assigned k ops rs)).
Proof.
  intros ops rs st Hnd Hrun k Hc. destruct (hist_from_start ops rs st Hnd Hrun k) as (Ht & Htl).
  rewrite (Htl Hc), app_nil_r in Ht. exact Ht.
Qed.
Print Assumptions C10_faulty_history_complete.

(** * The two models of the send loop agree where both apply: over connections that accept every write, [RrSend.send]
      does what [World.send_rr] does (same outcome, same bytes on the same wire, same rotation and tables afterwards) *)
From ZV Require Import Proofs.DirSendProofs Proofs.SendRefinement.
Theorem C10_faulty_refines_world : forall w st m,
  World.w_type w = PUSH \/ World.w_type w = DEALER -> rr_agrees w st -> lenN (encode_frames m) < 2 ^ 63 ->
  let '(b, w') := World.send_rr (S (length (World.w_rr w))) w m in
  let '(r, st') := RrSend.send st m in
  rr_agrees w' st' /\
  match r with
  | ROk k => b = World.BSendOk /\
             wire_w k w' = wire_w k w ++ encode_frames m /\ wire_of k st' = wire_of k st ++ encode_frames m /\
             (forall j, j <> k -> wire_w j w' = wire_w j w /\ wire_of j st' = wire_of j st)
  | RNoPeer => b = World.BSendErr EReturnToSender (Some m) /\
               (forall j, wire_w j w' = wire_w j w /\ wire_of j st' = wire_of j st)
  | _ => False
  end.
Proof. exact rr_refines_world. Qed.
Print Assumptions C10_faulty_refines_world.

(** ... and over whole runs of sends: same outcomes, same bytes on the same wires, still in agreement afterwards *)
From ZV Require Import Proofs.SendRefinementRuns.
Theorem C10_faulty_runs_refine_world : forall ms w st,
  World.w_type w = PUSH \/ World.w_type w = DEALER -> rr_agrees w st ->
  Forall (fun m => lenN (encode_frames m) < 2 ^ 63) ms ->
  let '(bs, w') := SocketProofs.sends w ms in
  let '(rs, st') := rrun st (map RSend ms) in
  rr_agrees w' st' /\
  length bs = length ms /\ length rs = length ms /\
  (forall i m b r, nth_error ms i = Some m -> nth_error bs i = Some b -> nth_error rs i = Some r -> same_outcome m b r) /\
  exists d : N -> bytes, forall j, wire_w j w' = wire_w j w ++ d j /\ wire_of j st' = wire_of j st ++ d j.
Proof. exact rr_runs_refine_world. Qed.
Print Assumptions C10_faulty_runs_refine_world.
