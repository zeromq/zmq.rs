(** C08 - REQ/REP lock-step: one outstanding request, reply goes to its requester.  Property theorems only. *)
From ZV Require Proofs.CodecEnc Proofs.PushDistribution Proofs.ReqRotation.
From ZV Require Import Base.Bytes Base.Res Model.Codec Model.World Proofs.SocketProofs.

(** decision rules: an out-of-turn call fails, hands the message back, writes nothing, changes nothing *)
Theorem C08_req_out_of_turn_send : forall w k m, w_type w = REQ -> w_cur w = Some k ->
  step w (OSend m) = ([BSendErr EReturnToSender (Some m)], w).
Proof. exact req_send_out_of_turn. Qed.
Print Assumptions C08_req_out_of_turn_send.

Theorem C08_req_out_of_turn_recv : forall w, w_type w = REQ -> w_cur w = None ->
  step w ORecv = ([BRecvErr EOther], w).
Proof. exact req_recv_out_of_turn. Qed.
Print Assumptions C08_req_out_of_turn_recv.

Theorem C08_rep_no_reply_without_request : forall w m, w_type w = REP -> w_cur w = None ->
  step w (OSend m) = ([BSendErr EReturnToSender (Some m)], w).
Proof. exact rep_send_without_request. Qed.
Print Assumptions C08_rep_no_reply_without_request.

(** strict alternation on REQ *)
Theorem C08_req_send_ok_alternates : forall w m w', w_type w = REQ -> step w (OSend m) = ([BSendOk], w') ->
  w_cur w = None /\ exists k, w_cur w' = Some k /\ memN k (w_peers w) = true.
Proof. exact req_send_ok_alternates. Qed.
Print Assumptions C08_req_send_ok_alternates.

Theorem C08_req_recv_ok_alternates : forall w from r w', w_type w = REQ -> step w ORecv = ([BRecv from r], w') ->
  exists k, w_cur w = Some k /\ w_cur w' = None.
Proof.
  intros w from r w' Ht H. apply (step_recv_req_inv w _ _ Ht) in H.
  destruct (w_cur w) as [k|] eqn:Hc; [|rewrite (recv_req_idle w Hc) in H; discriminate].
  exists k. split; [reflexivity|]. exact (proj2 (recv_req_spec w k _ _ Hc H)).
Qed.
Print Assumptions C08_req_recv_ok_alternates.

(** the reply is read from the connection the request was written to, and from no other *)
Theorem C08_req_reply_from_requestee : forall w k b w' j, w_type w = REQ -> w_cur w = Some k -> conns_ok w ->
  step w ORecv = ([b], w') -> j <> k -> get_conn j (w_conns w') = get_conn j (w_conns w).
Proof.
  intros w k b w' j Ht Hc _ H Hj. apply (step_recv_req_inv w _ _ Ht) in H.
  exact (proj1 (recv_req_spec w k _ _ Hc H) j Hj).
Qed.
Print Assumptions C08_req_reply_from_requestee.

(** REP writes envelope ++ reply to exactly the connection of the request it last returned *)
Theorem C08_rep_reply_to_requester : forall w k m, w_type w = REP -> w_cur w = Some k -> memN k (w_peers w) = true ->
  step w (OSend m) = ([BSendOk], with_cur (write_msg w k (rep_wrap (w_env w) m)) None None).
Proof. exact rep_reply_goes_to_requester. Qed.
Print Assumptions C08_rep_reply_to_requester.

Theorem C08_write_touches_one_connection : forall w k m j, j <> k ->
  get_conn j (w_conns (write_msg w k m)) = get_conn j (w_conns w).
Proof. exact write_msg_others_unchanged. Qed.
Print Assumptions C08_write_touches_one_connection.

(** closed form over whole histories (C08 + C10 for REQ, composed with the codec): a REQ socket with n connected
    servers that all answer sends request number i - one empty delimiter and the payload - to server (i mod n) in
    joining order, returns exactly that server's reply payload, and only then accepts the next request *)
Theorem C08_req_rotation : forall cs prs,
  NoDup cs -> cs <> [] ->
  Forall (fun pr => snd pr <> [] /\ CodecEnc.wf_msg ([] :: snd pr)) prs ->
  World.run (world0 REQ) (map (fun c => OAttach c None) cs ++ ReqRotation.cycles cs prs 0 ++ map OWire cs) =
  map (fun c => BAtt c None) cs ++
  flat_map (fun pr => [BSendOk; BRecv None (snd pr)]) prs ++
  map (fun ic => BWire (snd ic) (concat (map (fun p => encode_frames ([] :: p)) (PushDistribution.share (fst ic) (length cs) (map fst prs)))))
      (combine (seq 0 (length cs)) cs).
Proof. exact ReqRotation.req_rotation. Qed.
Print Assumptions C08_req_rotation.

(** * REQ's send over connections that answer each write from a script (Model/DirSend.v) *)
From ZV Require Import Model.TrySend Model.RrSend Model.DirSend Proofs.RrSendProofs Proofs.DirSendProofs.

Theorem C08_faulty_busy_refused : forall q m k, q_cur q = Some k -> req_send q m = (QBusy, q).
Proof. exact req_busy_refused. Qed.
Print Assumptions C08_faulty_busy_refused.

(** a request that went out whole makes exactly that server owe the reply *)
Theorem C08_faulty_sent_owes : forall q m k q', req_send q m = (QSent k, q') ->
  q_cur q = None /\ q_cur q' = Some k /\ pget k (r_peers (q_base q)) <> None /\
  (forall p, pget k (r_peers (q_base q)) = Some p -> k_buf (p_sink p) = [] ->
     wire_of k (q_base q') = wire_of k (q_base q) ++ encode_frames (World.req_wrap m)).
Proof. exact req_sent_owes. Qed.
Print Assumptions C08_faulty_sent_owes.

(** a request that failed, found no server or was abandoned leaves the socket owing nothing: the next request may go out *)
Theorem C08_faulty_not_sent_owes_nothing : forall q m r q', req_send q m = (r, q') ->
  (forall k, r <> QSent k) -> r <> QBusy -> q_cur q' = None.
Proof.
  intros q m r q' H Hs Hb. apply req_send_inv in H as [(_ & H & _)|(_ & r0 & st & _ & -> & ->)]; [congruence|].
  destruct r0; try reflexivity. exfalso. eapply Hs. reflexivity.
Qed.
Print Assumptions C08_faulty_not_sent_owes_nothing.

Theorem C08_faulty_touches_one : forall q m r q', req_send q m = (r, q') -> forall j, q_targets j r = false ->
  wire_of j (q_base q') = wire_of j (q_base q) /\ pget j (r_peers (q_base q')) = pget j (r_peers (q_base q)).
Proof. exact req_touches_one. Qed.
Print Assumptions C08_faulty_touches_one.

(** request, reply, request, ... over servers that accept every write visits them in queue order and restores the queue *)
Theorem C08_faulty_full_round : forall ms q, q_cur q = None -> all_accepting (q_base q) -> NoDup (r_rr (q_base q)) ->
  (forall k, In k (r_rr (q_base q)) -> pget k (r_peers (q_base q)) <> None) ->
  length ms = length (r_rr (q_base q)) ->
  Forall (fun m => lenN (encode_frames (World.req_wrap m)) < 2 ^ 63) ms ->
  fst (req_cycles q ms) = map QSent (r_rr (q_base q)) /\
  r_rr (q_base (snd (req_cycles q ms))) = r_rr (q_base q).
Proof. intros ms q Hc Ha _. exact (req_full_round ms q Hc Ha). Qed.
Print Assumptions C08_faulty_full_round.

(** over connections that accept every write, [req_send] does what the socket model's REQ send does *)
From ZV Require Import Proofs.SendRefinement.
Theorem C08_faulty_refines_world : forall w q m,
  World.w_type w = REQ -> req_agrees w q -> lenN (encode_frames (World.req_wrap m)) < 2 ^ 63 ->
  let '(bs, w') := World.step w (World.OSend m) in
  let '(r, q') := req_send q m in
  req_agrees w' q' /\
  match r with
  | QSent k => bs = [World.BSendOk] /\
               wire_w k w' = wire_w k w ++ encode_frames (World.req_wrap m) /\
               wire_of k (q_base q') = wire_of k (q_base q) ++ encode_frames (World.req_wrap m) /\
               (forall j, j <> k -> wire_w j w' = wire_w j w /\ wire_of j (q_base q') = wire_of j (q_base q))
  | QBusy | QNoPeer => bs = [World.BSendErr EReturnToSender (Some m)] /\
               (forall j, wire_w j w' = wire_w j w /\ wire_of j (q_base q') = wire_of j (q_base q))
  | _ => False
  end.
Proof. exact req_refines_world. Qed.
Print Assumptions C08_faulty_refines_world.
