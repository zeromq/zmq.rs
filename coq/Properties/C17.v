(** C17 - Closing or dropping a socket stops its listeners and disconnects all peers.  Property theorems only.
    Proof level: the ownership bookkeeping (what the socket's fields, the queue, the wakers and the
    tasks own).  What tokio keeps alive and when the OS closes a descriptor is observed on the real
    runtime by the harness, not proved (DESIGN 4 C17, 6). *)
From ZV Require Import Base.Bytes Model.Runtime Proofs.RuntimeProofs.
From ZV Require Gen.Src.

(** structure re-read from the source on every run: every backend's shutdown() clears its table and
    its fair queue, the queue's clear() drops the streams, all nine socket types shut down on Drop *)
Theorem C17_gen_structure :
  Gen.Src.generic_shutdown_clears_queue = 1 /\ Gen.Src.rep_shutdown_clears_queue = 1 /\ Gen.Src.sub_shutdown_clears_queue = 1 /\
  Gen.Src.xpub_shutdown_clears_queue = 1 /\ Gen.Src.generic_shutdown_clears_table = 1 /\ Gen.Src.rep_shutdown_clears_table = 1 /\
  Gen.Src.sub_shutdown_clears_table = 1 /\ Gen.Src.xpub_shutdown_clears_table = 1 /\
  Gen.Src.queue_clear_drops_streams = 1 /\ Gen.Src.sockets_with_drop_shutdown = 9.
Proof. repeat split; reflexivity. Qed.
Print Assumptions C17_gen_structure.

(** no endpoint is listened on any more (every accept task's stop channel is gone with the bind map) *)
Theorem C17_listeners_stop : forall o cq e, owned_ok o -> listening (drop_socket cq o) e = false.
Proof.
  intros o cq e Hok. unfold listening, drop_socket. cbn [o_listeners].
  unfold memN at 1. rewrite BytesProofs.existsb_eqb_filter. fold (memN e (o_listeners o)).
  destruct (memN e (o_listeners o)) eqn:E; [|apply andb_false_r].
  rewrite (Hok e E). reflexivity.
Qed.
Print Assumptions C17_listeners_stop.

(** every connected peer is released: after drop / close a connection stays open only if a handshake
    task that has not finished still owns it (listed known finding) *)
Theorem C17_peers_disconnected : forall o k, conn_open (drop_socket true o) k = Runtime.memN k (o_handshakes o).
Proof. intros o k. reflexivity. Qed.
Print Assumptions C17_peers_disconnected.

Theorem C17_everything_released : forall o,
  (o_table (drop_socket true o) = []) /\ (o_queue (drop_socket true o) = []) /\ (o_readers (drop_socket true o) = []) /\
  (o_binds (drop_socket true o) = []) /\ (o_handle (drop_socket true o) = false).
Proof. intros; repeat split. Qed.
Print Assumptions C17_everything_released.

(** why the queue has to be cleared: without it a polled stream's connection survives the socket
    (the defect that was repaired; kept as a theorem so that the model shows the failure) *)
Theorem C17_without_clear_leaks : forall o k, o_wakers o <> [] -> Runtime.memN k (o_queue o) = true ->
  conn_open (drop_socket false o) k = true.
Proof.
  intros o k Hw Hq. unfold conn_open, drop_socket, queue_alive. cbn [o_handle o_table o_queue o_wakers o_readers o_handshakes].
  destruct (o_wakers o); [congruence|]. rewrite Hq. reflexivity.
Qed.
Print Assumptions C17_without_clear_leaks.
