(** C06 - A waiting receiver is always woken, and no peer is starved.  Property theorems only. *)
From ZV Require Import Base.Bytes Model.FairQueue Proofs.FairQueueProofs.
From ZV Require Gen.Src.

(** structure re-read from the source on every run: a stream waker records that it has fired, and the poll loop
    returns Pending instead of looping when the waker of the stream poll in progress has fired (the [QYield] case) *)
Theorem C06_gen_structure : Gen.Src.fq_waker_sets_woken = 1 /\ Gen.Src.fq_pending_checks_woken = 1.
Proof. split; reflexivity. Qed.
Print Assumptions C06_gen_structure.

(** every stream in the map that is not being polled has a claim: an event in the ready heap or a
    kept waker that will push one *)
Theorem C06_claim_invariant : forall q, reachable q -> forall k, In k (f_streams q) -> has_claim q k.
Proof. exact fq_claim_invariant. Qed.
Print Assumptions C06_claim_invariant.

(** a parked receiver that has not been woken sits on an empty ready heap with its waker stored *)
Theorem C06_parked_invariant : forall q, reachable q ->
  f_parked q = true -> f_woken q = false -> f_heap q = [] /\ f_rwaker q = true /\ f_pc q = Idle.
Proof. exact fq_parked_invariant. Qed.
Print Assumptions C06_parked_invariant.

(** no lost wake-up: while the receiver is parked and not yet woken, every registered stream that is
    ready still holds its waker (the wake is owed by the transport, not forgotten by the queue) ... *)
Theorem C06_no_lost_wakeup : forall q, reachable q -> f_parked q = true -> f_woken q = false ->
  forall k, In k (f_streams q) -> src_ready (the_src q k) = true -> s_reg (the_src q k) <> None.
Proof.
  intros q R Hp Hw k Hk _.
  destruct (C06_parked_invariant q R Hp Hw) as [Hh _].
  destruct (C06_claim_invariant q R k Hk) as [[p Hin]|H]; auto.
  rewrite Hh in Hin. contradiction.
Qed.
Print Assumptions C06_no_lost_wakeup.

(** a stream poll that wakes the waker it is polled with and returns Pending (a yielding stream) makes
    poll_next return Pending at once, with the stream's event queued, the stream back in the map and the
    receiver already woken: no spinning, no lost wake-up *)
Theorem C06_yield_returns_pending : forall q ev q1 q2 es,
  f_pc q = Out ev -> step q LR2Y = (q1, []) -> step q1 LR3 = (q2, es) ->
  es = [EPending] /\ f_pc q2 = Idle /\ f_parked q2 = true /\ In ev (f_heap q2) /\ In (snd ev) (f_streams q2) /\
  (f_rwaker q = true -> f_woken q2 = true).
Proof. exact yield_returns_pending. Qed.
Print Assumptions C06_yield_returns_pending.

(** ... and when that waker fires, or a new connection is inserted, the receiver is woken *)
Theorem C06_wake_wakes_receiver : forall q k c, reachable q -> f_parked q = true -> f_woken q = false ->
  s_reg (the_src q k) <> None -> f_woken (fst (step q (LWake k c))) = true /\ f_parked (fst (step q (LWake k c))) = true.
Proof.
  intros q k c R Hp Hw Hr.
  destruct (C06_parked_invariant q R Hp Hw) as [_ [Hrw _]].
  cbn [step]. destruct (s_reg (the_src q k)) as [ev|]; [|congruence].
  rewrite wake_receiver_set. proj. rewrite Hrw, orb_true_r. auto.
Qed.
Print Assumptions C06_wake_wakes_receiver.

Theorem C06_insert_wakes_receiver : forall q k, reachable q -> f_parked q = true -> f_woken q = false ->
  f_woken (fst (step q (LInsert k))) = true.
Proof.
  intros q k R Hp Hw.
  destruct (C06_parked_invariant q R Hp Hw) as [_ [Hrw _]].
  cbn [step]. rewrite wake_receiver_set. proj. rewrite Hrw. apply orb_true_r.
Qed.
Print Assumptions C06_insert_wakes_receiver.

(** one poll_next call always returns (with environment events landing anywhere inside it) *)
Theorem C06_poll_terminates : forall q idx w, ~ In LStart w -> f_pc q = Idle -> f_pc (fst (poll q idx w)) = Idle.
Proof. exact poll_returns_idle_noStart. Qed.
Print Assumptions C06_poll_terminates.

(** fairness, under the registration contract (a kept waker fires at most once, keys are fresh):
    each stream holds at most one claim ... *)
Theorem C06_one_claim : forall b ls q es, run (fq0 b) ls = (q, es) ->
  (forall k c, In (LWake k c) ls -> c = true) -> NoDup (insert_keys ls) -> forall k, (claims q k <= 1)%nat.
Proof.
  intros b ls q es H Hw Hn k. rewrite <- (app_nil_r ls) in Hw, Hn.
  apply (Contract_one_claim q [] k (Contract_reached b ls [] q es H Hw Hn)).
Qed.
Print Assumptions C06_one_claim.

(** ... and while stream i waits with an event in the heap, the number of items delivered from other
    streams is at most (number of streams holding a claim) - 1, however much the others have queued;
    i itself is not served twice in between *)
Theorem C06_fair_bound : forall b ls0 ls q q' es es0 p i,
  run (fq0 b) ls0 = (q, es0) -> run q ls = (q', es) ->
  (forall k c, In (LWake k c) (ls0 ++ ls) -> c = true) -> NoDup (insert_keys (ls0 ++ ls)) ->
  In (p, i) (f_heap q) -> stays p i q ls ->
  NoDup (claim_keys q) /\ (nready es <= length (claim_keys q) - 1)%nat.
Proof.
  intros b ls0 ls q q' es es0 p i H0 H1 Hw Hn Hin Hs.
  destruct (fq_fairness_bound b ls0 ls q q' es es0 p i H0 H1 Hw Hn Hin Hs) as (_ & HB & _).
  rewrite claim_keys_length. split; auto.
  apply (Contract_keys_distinct q ls (Contract_reached b ls0 ls q es0 H0 Hw Hn)).
Qed.
Print Assumptions C06_fair_bound.
