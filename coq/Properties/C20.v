(** C20 - A stalled or malicious handshake never blocks other connections.  Property theorems only.
    Proof level: the task structure (one independent handshake task per accepted connection, touching
    the socket only in its final step).  That tokio eventually runs every runnable task is assumed. *)
From ZV Require Gen.Src.
From ZV Require Import Base.Bytes Base.Res Model.Codec Model.Handshake Model.Runtime Proofs.RuntimeProofs.

(** structure re-read from the source on every run: both accept loops are a two-armed select (accept /
    stop), spawn the handshake task detached and never await anything inside the loop - which is what
    makes [ANewConn] unconditionally enabled in the model below *)
Theorem C20_gen_structure :
  Gen.Src.tcp_accept_loop_awaits = 0 /\ Gen.Src.ipc_accept_loop_awaits = 0 /\
  Gen.Src.tcp_accept_spawns_detached = 1 /\ Gen.Src.ipc_accept_spawns_detached = 1 /\
  Gen.Src.tcp_accept_select_arms = 2 /\ Gen.Src.ipc_accept_select_arms = 2.
Proof. repeat split; reflexivity. Qed.
Print Assumptions C20_gen_structure.

(** while the bind is not stopped the listener can accept, whatever state any handshake task is in;
    accepting touches neither the peer tables nor the monitor *)
Theorem C20_accept_always_enabled : forall rr fq w, a_stopped w = false ->
  length (a_tasks (astep rr fq w ANewConn)) = S (length (a_tasks w)) /\
  a_tables (astep rr fq w ANewConn) = a_tables w /\ a_monitor (astep rr fq w ANewConn) = a_monitor w.
Proof.
  intros rr fq w H. cbn [astep]. rewrite H. cbn [a_tasks a_tables a_monitor].
  rewrite app_length, Nat.add_1_r. repeat split.
Qed.
Print Assumptions C20_accept_always_enabled.

(** a handshake task is touched only by events of its own connection ... *)
Theorem C20_isolation : forall rr fq w e j t, concerns e j = false ->
  find_task j (a_tasks w) = Some t -> find_task j (a_tasks (astep rr fq w e)) = Some t.
Proof. exact others_do_not_touch_task. Qed.
Print Assumptions C20_isolation.

(** ... its outcome is a function of its own bytes, independent of how they were segmented ... *)
Theorem C20_outcome_depends_on_own_bytes : forall local cs1 cs2 eof,
  concat cs1 = concat cs2 -> handshake_verdict local cs1 eof = handshake_verdict local cs2 eof.
Proof.
  intros local cs1 cs2 eof H. unfold handshake_verdict.
  rewrite (Decoder.segmentation_independent cs1 cs2 eof H). reflexivity.
Qed.
Print Assumptions C20_outcome_depends_on_own_bytes.

(** ... established traffic and the peer set are touched only by the final step of a handshake ... *)
Theorem C20_established_unaffected : forall rr fq w e, (forall j, e <> ARun j) ->
  a_tables (astep rr fq w e) = a_tables w /\ a_monitor (astep rr fq w e) = a_monitor w.
Proof.
  intros rr fq w e H. destruct e as [|j b|j|j|]; cbn [astep]; try (split; reflexivity).
  - destruct (a_stopped w); split; reflexivity.
  - destruct (H j eq_refl).
Qed.
Print Assumptions C20_established_unaffected.

(** ... and a handshake that fails is reported as an accept failure and leaves the peer set unchanged *)
Theorem C20_failed_reported_and_inert : forall rr fq w j t, find_task j (a_tasks w) = Some t -> h_done t = false ->
  match handshake_verdict (a_local w) (h_chunks t) (h_eof t) with
  | Incomplete => astep rr fq w (ARun j) = w
  | Accept i => a_monitor (astep rr fq w (ARun j)) = a_monitor w ++ [MAccepted j] /\
                a_tables (astep rr fq w (ARun j)) = connection_event rr fq [2000 + j] (Accept i) (a_tables w)
  | v => a_monitor (astep rr fq w (ARun j)) = a_monitor w ++ [MAcceptFailed j] /\
         a_tables (astep rr fq w (ARun j)) = a_tables w
  end.
Proof.
  intros rr fq w j t Hf Hd. cbn [astep]. rewrite Hf, Hd.
  destruct (handshake_verdict (a_local w) (h_chunks t) (h_eof t)) as [i|e|p|]; cbn [a_monitor a_tables]; auto.
Qed.
Print Assumptions C20_failed_reported_and_inert.
