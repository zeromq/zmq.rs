(** C13 - A SUB socket's subscriptions reach every peer, including late joiners.  Property theorems only. *)
From ZV Require Import Base.Bytes Base.Res Spec.PrefixMultiset Model.Codec Model.World Proofs.PubSubProofs Proofs.LifecycleProofs.

(** structure re-read from src/sub.rs on every run: the wire message is sent only when the set changes,
    the update loop does not stop at the first failing peer, the replay does not unwrap *)
Theorem C13_gen_structure :
  Gen.sub_subscribe_only_on_change = 1 /\ Gen.sub_unsubscribe_only_on_change = 1 /\
  Gen.sub_update_stops_at_error = 0 /\ Gen.sub_replay_unwraps = 0 /\ Gen.sub_op_sub = 1 /\ Gen.sub_op_unsub = 0.
Proof. repeat split; reflexivity. Qed.
Print Assumptions C13_gen_structure.

(** for EVERY history of subscribe / unsubscribe (repeated, never-subscribed, any topics) and joins at
    every point: at every moment each registered peer has been written subscription messages whose
    per-topic count - as a publisher counts them - is 1 for a currently subscribed topic and 0
    otherwise.  Hence every peer has been told exactly the current set and all peers agree. *)
Theorem C13_agree_at_quiescence : forall ops w,
  w = exec (world0 SUB) ops -> Forall sub_op ops ->
  NoDup (w_subs w) /\ NoDup (w_peers w) /\
  forall c, memN c (w_peers w) = true ->
    exists cn msgs, get_conn c (w_conns w) = Some cn /\
      c_wire cn = concat (map encode_frames msgs) /\
      forall t, count msgs t = if subscribed w t then 1%nat else 0%nat.
Proof. exact sub_agreement_strong. Qed.
Print Assumptions C13_agree_at_quiescence.

(** peers connected before the call receive the change ... *)
Theorem C13_subscribe_tells_every_peer : forall w t k c, w_type w = SUB -> NoDup (w_peers w) ->
  existsb (bytes_eqb t) (w_subs w) = false ->
  In k (w_peers w) -> get_conn k (w_conns w) = Some c ->
  exists c', get_conn k (w_conns (snd (step w (OSub t)))) = Some c' /\
             c_wire c' = c_wire c ++ encode_frames [1 :: t].
Proof.
  intros w t k c _ Hnd Hnew Hin Hg. unfold step. rewrite Hnew. cbv zeta. cbn [snd].
  exact (write_fold_told _ _ (with_subs w _) k c Hnd Hin Hg).
Qed.
Print Assumptions C13_subscribe_tells_every_peer.

Theorem C13_unsubscribe_tells_every_peer : forall w t k c, w_type w = SUB -> NoDup (w_peers w) ->
  existsb (bytes_eqb t) (w_subs w) = true ->
  In k (w_peers w) -> get_conn k (w_conns w) = Some c ->
  exists c', get_conn k (w_conns (snd (step w (OUnsub t)))) = Some c' /\
             c_wire c' = c_wire c ++ encode_frames [0 :: t].
Proof.
  intros w t k c _ Hnd Hold Hin Hg. unfold step. rewrite Hold. cbn [negb]. cbv zeta. cbn [snd].
  exact (write_fold_told _ _ (with_subs w _) k c Hnd Hin Hg).
Qed.
Print Assumptions C13_unsubscribe_tells_every_peer.

(** ... a repeated subscribe / an unsubscribe of something not subscribed tells nobody (so that
    counting publishers and late joiners keep agreeing) ... *)
Theorem C13_repeat_is_silent : forall w t,
  (existsb (bytes_eqb t) (w_subs w) = true -> step w (OSub t) = ([BSubOk true], w)) /\
  (existsb (bytes_eqb t) (w_subs w) = false -> step w (OUnsub t) = ([BSubOk false], w)).
Proof. intros w t. split; intros H; unfold step; rewrite H; reflexivity. Qed.
Print Assumptions C13_repeat_is_silent.

(** ... and a peer that joins afterwards receives all subscriptions active at that time *)
Theorem C13_late_joiner_gets_all : forall w c ann, w_type w = SUB ->
  exists cn, get_conn c (w_conns (do_attach w c ann)) = Some cn /\
    c_wire cn = concat (map (fun t => encode_frames [1 :: t]) (w_subs w)).
Proof. exact attach_self. Qed.
Print Assumptions C13_late_joiner_gets_all.

(** * subscribe / unsubscribe over connections that answer each write from a script (Model/DirSend.v) *)
From ZV Require Import Model.TrySend Model.RrSend Model.DirSend Proofs.RrSendProofs Proofs.DirSendProofs.

(** when no connection keeps refusing data, every peer of the table is sent the update exactly once, each according to
    its own connection alone: a failure on one peer's connection does not prevent the other peers from being updated *)
Theorem C13_faulty_every_peer_once : forall ps enc, (forall p, In p ps -> fst (sink_send (p_sink p) enc) <> FlStall) ->
  bcast ps enc =
  (map (fun p => (p_id p, fst (sink_send (p_sink p) enc))) ps,
   map (fun p => {| p_id := p_id p; p_sink := snd (sink_send (p_sink p) enc) |}) ps).
Proof. exact bcast_no_stall. Qed.
Print Assumptions C13_faulty_every_peer_once.

(** a peer whose connection accepts every write has been told exactly the changes the socket's set went through, in
    order, whatever the connections of the other peers do *)
Theorem C13_faulty_healthy_told_all : forall ops st rs st' k p,
  srun st ops = (rs, st') ->
  pget k (s_peers st) = Some p -> k_tr (p_sink p) = accepting_tr -> k_buf (p_sink p) = [] ->
  (forall o, In o ops -> concerns_peer k o = false) ->
  (forall r, In r rs -> match r with BStall _ => False | _ => True end) ->
  (forall t : bytes, In (SSub t) ops \/ In (SUnsub t) ops -> lenN t < 2 ^ 62) ->
  swire k st' = swire k st ++ concat (map encode_frames (updates (s_subs st) ops)).
Proof.
  intros ops st rs st' k p Hrun Hp Ht Hb Hc Hns Hlen.
  destruct (srun_healthy ops st rs st' k (k_written (p_sink p)) Hrun) as (p' & Hp' & _ & _ & Hw); try assumption.
  - exists p. auto.
  - unfold swire. rewrite Hp', Hp. exact Hw.
Qed.
Print Assumptions C13_faulty_healthy_told_all.

Theorem C13_faulty_joiner_gets_set : forall st k,
  pget k (s_peers st) = None ->
  let st' := snd (sstep st (SAttach k)) in
  swire k st' = concat (map (fun t => encode_frames (DirSend.sub_msg Gen.sub_op_sub t)) (s_subs st)) /\ s_subs st' = s_subs st.
Proof.
  intros st k H. cbv zeta. cbn [sstep snd s_subs]. split; [|reflexivity].
  unfold swire. cbn [s_peers]. rewrite pget_app, H. cbn [pget p_id]. rewrite N.eqb_refl.
  cbn [p_sink k_written]. reflexivity.
Qed.
Print Assumptions C13_faulty_joiner_gets_set.

Theorem C13_faulty_repeat_silent : forall st t, has t (s_subs st) = true -> sstep st (SSub t) = (Some BOk, st).
Proof. intros st t H. cbn [sstep]. rewrite H. reflexivity. Qed.
Print Assumptions C13_faulty_repeat_silent.
