(** C09 - ROUTER labels inbound messages with the true sender and routes by first frame.  Property theorems only. *)
From ZV Require Import Base.Bytes Base.Res Model.Codec Model.World Proofs.SocketProofs.
From ZV Require Proofs.WorldStreamDefs Proofs.RouterStream.

(** whatever the fair queue yields from connection k is returned prefixed with k's identity (the
    announced one, else the unique one assigned to the connection), remaining frames unmodified *)
Theorem C09_label_true_sender : forall n w k m w1, w_type w = ROUTER ->
  fq_next (S (length (w_heap w)) + length (w_conns w) + 2) w = (FItem k (OItem (IMessage m)), w1) ->
  recv_fq (S n) w =
    (match get_conn k (w_conns w1) with
     | Some c => match c_ann c with Some b => BRecv None (b :: m) | None => BRecv (Some k) m end
     | None => BRecv (Some k) m end, w1).
Proof.
  intros n w k m w1 Ht H. cbn [recv_fq]. rewrite H, Ht.
  destruct (get_conn k (w_conns w1)) as [c|]; [|reflexivity].
  destruct (c_ann c); reflexivity.
Qed.
Print Assumptions C09_label_true_sender.

(** delivered, minus the first frame, to exactly the addressed peer; every other wire and the table unchanged *)
Theorem C09_route_exact : forall w c m cn, w_type w = ROUTER -> conns_ok w -> memN c (w_peers w) = true ->
  get_conn c (w_conns w) = Some cn ->
  exists w', step w (OSendTo c m) = ([BSendOk], w') /\
    (exists cn', get_conn c (w_conns w') = Some cn' /\ c_wire cn' = c_wire cn ++ encode_frames m) /\
    (forall j, j <> c -> get_conn j (w_conns w') = get_conn j (w_conns w)) /\ w_peers w' = w_peers w.
Proof.
  intros w c m cn Ht _ Hm Hg. exists (write_msg w c m). split; [|split; [|split]].
  - unfold step. rewrite Ht, Hm. reflexivity.
  - rewrite WorldBasics.write_msg_get, N.eqb_refl, Hg. eexists. split; reflexivity.
  - intros j Hj. apply write_msg_others_unchanged. exact Hj.
  - apply WorldBasics.write_msg_tables.
Qed.
Print Assumptions C09_route_exact.

(** no such peer: the send fails and nothing is written anywhere *)
Theorem C09_route_unknown : forall w c m, w_type w = ROUTER -> memN c (w_peers w) = false ->
  step w (OSendTo c m) = ([BSendErr EOther None], w).
Proof. exact router_route_unknown. Qed.
Print Assumptions C09_route_unknown.

Theorem C09_route_unknown_bytes : forall w id rest, w_type w = ROUTER -> rest <> [] ->
  (forall c, In c (w_conns w) -> c_ann c <> Some id \/ memN (c_id c) (w_peers w) = false) ->
  exists e, step w (OSend (id :: rest)) = ([BSendErr e None], w).
Proof. exact router_route_by_bytes_unknown. Qed.
Print Assumptions C09_route_unknown_bytes.

(** over whole histories, at the API level of the socket model: a ROUTER with any number of connected peers
    (identities assigned by the socket), any interleaving of arrivals in any chunking, closes and recv
    calls.  Every message recv returns is labelled with an attached connection ... *)
Theorem C09_history_labels : forall cs ops from m,
  NoDup cs -> Forall RouterStream.traffic_op ops ->
  In (BRecv from m) (World.run (WorldStreamDefs.attached ROUTER cs) ops) -> exists k, from = Some k /\ In k cs.
Proof.
  intros cs ops from m _ Hall Hin.
  destruct (RouterStream.run_sim cs ops Hall) as (_ & _ & _ & _ & _ & Hl).
  exact (Hl from m Hin).
Qed.
Print Assumptions C09_history_labels.

(** ... the messages labelled k are a prefix of the messages k's byte stream contains, in order, each once
    (the label is the TRUE sender: no message of another connection ever carries it) ... *)
Theorem C09_history_true_sender_in_order : forall cs ops k,
  NoDup cs -> In k cs -> Forall RouterStream.traffic_op ops ->
  WorldStreamDefs.is_prefix_of
    (RouterStream.msgs_from k (World.run (WorldStreamDefs.attached ROUTER cs) ops))
    (RouterStream.messages_of (WorldStreamDefs.expected (WorldStreamDefs.chunks_of k (RouterStream.evs_of ops))
                                                         (WorldStreamDefs.closed_of k (RouterStream.evs_of ops)))).
Proof. intros cs ops k _. exact (RouterStream.router_recv_in_order cs ops k). Qed.
Print Assumptions C09_history_true_sender_in_order.

(** ... and when a recv parks, every connection's messages have all been returned under its label *)
Theorem C09_history_complete : forall cs ops k,
  NoDup cs -> In k cs -> Forall RouterStream.traffic_op ops ->
  last (World.run (WorldStreamDefs.attached ROUTER cs) (ops ++ [ORecv])) BRecvPending = BRecvPending ->
  RouterStream.msgs_from k (World.run (WorldStreamDefs.attached ROUTER cs) (ops ++ [ORecv])) =
  RouterStream.messages_of (WorldStreamDefs.expected (WorldStreamDefs.chunks_of k (RouterStream.evs_of ops))
                                                      (WorldStreamDefs.closed_of k (RouterStream.evs_of ops))).
Proof. intros cs ops k _. exact (RouterStream.router_recv_complete cs ops k). Qed.
Print Assumptions C09_history_complete.

(** * Routing over connections that answer each write from a script (Model/DirSend.v: [send_to] is ROUTER's send) *)
From ZV Require Import Model.TrySend Model.RrSend Model.DirSend Proofs.RrSendProofs Proofs.DirSendProofs.

(** a message for peer k touches no other connection and not the rotation, whatever its outcome *)
Theorem C09_faulty_touches_only : forall st k m r st', send_to st k m = (r, st') ->
  r_rr st' = r_rr st /\
  forall j, j <> k -> wire_of j st' = wire_of j st /\ pget j (r_peers st') = pget j (r_peers st).
Proof. exact send_to_touches_only. Qed.
Print Assumptions C09_faulty_touches_only.

Theorem C09_faulty_unknown : forall st k m, pget k (r_peers st) = None -> send_to st k m = (RNoPeer, st).
Proof. exact send_to_unknown. Qed.
Print Assumptions C09_faulty_unknown.

Theorem C09_faulty_ok_whole : forall st k m k' st', send_to st k m = (ROk k', st') ->
  k' = k /\ exists p, pget k (r_peers st) = Some p /\
    (k_buf (p_sink p) = [] -> wire_of k st' = wire_of k st ++ encode_frames m).
Proof. exact send_to_ok_whole. Qed.
Print Assumptions C09_faulty_ok_whole.

(** over connections that accept every write, [send_to] does what the socket model's ROUTER send does *)
From ZV Require Import Proofs.SendRefinement.
Theorem C09_faulty_refines_world : forall w st k m,
  World.w_type w = ROUTER -> rr_agrees w st -> lenN (encode_frames m) < 2 ^ 63 ->
  let '(bs, w') := World.step w (World.OSendTo k m) in
  let '(r, st') := send_to st k m in
  rr_agrees w' st' /\
  match r with
  | ROk k' => k' = k /\ bs = [World.BSendOk] /\
              wire_w k w' = wire_w k w ++ encode_frames m /\ wire_of k st' = wire_of k st ++ encode_frames m /\
              (forall j, j <> k -> wire_w j w' = wire_w j w /\ wire_of j st' = wire_of j st)
  | RNoPeer => bs = [World.BSendErr EOther None] /\ w' = w /\ st' = st
  | _ => False
  end.
Proof. exact send_to_refines_world. Qed.
Print Assumptions C09_faulty_refines_world.
