(** C02 - Stream reassembly is independent of how the bytes were segmented.  Property theorems only. *)
From ZV Require Import Base.Bytes Base.Res Spec.Stream Model.Codec Proofs.Decoder Proofs.CodecEnc Proofs.CodecRoundtrip.

(** resumability of one decode call: what was returned for a prefix is what is returned when more
    bytes are already there (item / error case), and continuing from the returned state with more
    bytes equals decoding the concatenation (need-more-bytes case) *)
Theorem C02_resume_item : forall f d buf ext r d' buf',
  wfd d -> (mu d (buf ++ ext) < f)%nat ->
  decode f d buf = (r, d', buf') -> r <> RNone -> r <> RFuel ->
  decode f d (buf ++ ext) = (r, d', buf' ++ ext).
Proof.
  intros f d buf ext r d' buf' W M H Hn Hf.
  pose proof (Run_ext d buf _ ext (decode_Run f d buf) W) as X. rewrite H in X.
  apply Run_decode; [|exact Hf|exact M]. destruct r; [elim Hn; reflexivity|exact X..].
Qed.
Print Assumptions C02_resume_item.

Theorem C02_resume_none : forall f d buf ext d' buf',
  wfd d -> (mu d (buf ++ ext) < f)%nat ->
  decode f d buf = (RNone, d', buf') ->
  decode f d (buf ++ ext) = decode f d' (buf' ++ ext).
Proof.
  intros f d buf ext d' buf' W M H.
  pose proof (Run_ext d buf _ ext (decode_Run f d buf) W) as X. rewrite H in X. destruct X as [M' X].
  apply Run_decode; [apply X, decode_Run|apply decode_fuelled; lia|exact M].
Qed.
Print Assumptions C02_resume_none.

(** what the framed reader yields depends only on the concatenated stream: all chunkings, with and
    without end-of-stream *)
Theorem C02_chunks_eq_whole : forall chunks eof, lib_items chunks eof = lib_items [concat chunks] eof.
Proof. exact chunks_eq_whole. Qed.
Print Assumptions C02_chunks_eq_whole.

Theorem C02_segmentation_independent : forall cs1 cs2 eof,
  concat cs1 = concat cs2 -> lib_items cs1 eof = lib_items cs2 eof.
Proof. exact segmentation_independent. Qed.
Print Assumptions C02_segmentation_independent.

(** ... and equals the declarative reading of that stream (greeting, then frames grouped into
    commands and whole multipart messages, up to and including the first error): same items, same
    order, same frame boundaries, nothing lost or duplicated *)
Theorem C02_chunks_eq_spec : forall chunks, lib_items chunks false = spec_items (concat chunks).
Proof. exact chunks_eq_spec. Qed.
Print Assumptions C02_chunks_eq_spec.

(** non-vacuity: a concrete stream cut at every position decodes identically *)
Example C02_example :
  let s := encode_greeting default_greeting ++ encode_ready (ready_props DEALER (Some [65])) ++ encode_frames [[1; 2]; []; [3]] in
  forallb (fun k => match lib_items [firstn k s; skipn k s] true, lib_items [s] true with
                    | a, b => Nat.eqb (length a) (length b) && Nat.eqb (length a) 4 end) (seq 0 (length s)) = true.
Proof. vm_compute. reflexivity. Qed.
