(** C03 - Bytes from a peer can never crash the process or force unbounded allocation.
    Property theorems only.  (Stack depth and heap of the real process are runtime quantities: the
    harness measures them; here: no modelled panic site is reachable, held bytes are bounded by
    bytes received, and the decoder's structure - loop, no self-call, no reserve - is re-read from
    the source on every run.) *)
From ZV Require Import Base.Bytes Base.Res Model.Codec Model.Handshake Proofs.Decoder Proofs.HandshakeProofs Proofs.CodecRoundtrip.

(** structure of [decode] as re-read from the source: a loop, no recursive self-call, no reserve
    on a wire-controlled quantity; all five bounds checks of the command parser present *)
Theorem C03_gen_structure :
  Gen.decode_self_calls = 0 /\ Gen.decode_reserve_calls = 0 /\ Gen.decode_has_loop = 1 /\
  Gen.cmd_parse_guards = 5 /\ Gen.cmd_parse_vlen_guard = 4 /\ Gen.cmd_parse_vlen_width = 4.
Proof. repeat split; reflexivity. Qed.
Print Assumptions C03_gen_structure.

(** whatever bytes arrive, in whatever chunks, no modelled panic site (index, slice, get_u8/u32/u64,
    split_to, unwrap/expect) is reached and the loop terminates *)
Theorem C03_decode_never_panics : forall chunks eof,
  Forall (fun o => forall s, o <> OPanic s) (lib_items chunks eof).
Proof. exact lib_never_panics. Qed.
Print Assumptions C03_decode_never_panics.

Theorem C03_command_parser_total : forall body s, parse_command body <> Panic s.
Proof. exact parse_command_no_panic. Qed.
Print Assumptions C03_command_parser_total.

Theorem C03_one_call_no_panic : forall f d buf s,
  wfd d -> (mu d buf < f)%nat -> fst (fst (decode f d buf)) <> RPanic s.
Proof.
  intros f d buf s W _. destruct (decode f d buf) as [[r d'] b'] eqn:H. cbn [fst]. intros ->.
  apply decode_facts in H as [_ R]. exact (R ltac:(discriminate) W).
Qed.
Print Assumptions C03_one_call_no_panic.

(** bytes held for a connection (undecoded buffer + frames of a partially assembled message) never
    exceed the bytes actually received: a declared length reserves nothing *)
Theorem C03_memory_proportional : forall chunks, held (lib_reader chunks) <= lenN (concat chunks).
Proof. intros chunks. exact (proj2 (proj2 (feed_all_facts chunks reader0 settled_reader0))). Qed.
Print Assumptions C03_memory_proportional.

(** the handshake decision is total: accepted, rejected or still waiting - never a crash *)
Theorem C03_handshake_total : forall local chunks eof p, handshake_verdict local chunks eof <> Crash p.
Proof. exact verdict_never_crashes. Qed.
Print Assumptions C03_handshake_total.

Theorem C03_compat_total : forall a b, exists v, compatible a b = Ok v.
Proof. exact compat_total. Qed.
Print Assumptions C03_compat_total.
