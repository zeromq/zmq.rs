(** C07 - REQ/REP envelopes are added, preserved and stripped exactly.  Property theorems only. *)
From ZV Require Import Base.Bytes Base.Res Model.Codec Model.World Proofs.SocketProofs.
From ZV Require Proofs.CodecEnc Proofs.ReqRepWire.

Theorem C07_gen_constants : Gen.req_min_frames = 2 /\ Gen.rep_min_frames = 2 /\ Gen.rep_rejects_empty_payload = 1.
Proof. repeat split; reflexivity. Qed.
Print Assumptions C07_gen_constants.

(** REQ sends the application's frames behind exactly one empty delimiter ... *)
Theorem C07_req_adds_one_delimiter : forall p, req_wrap p = [] :: p.
Proof. reflexivity. Qed.
Print Assumptions C07_req_adds_one_delimiter.

(** ... and returns a reply's frames with exactly that delimiter removed, nothing else *)
Theorem C07_req_strips_exactly : forall r, r <> [] -> req_unwrap ([] :: r) = Ok r.
Proof. exact req_unwrap_strips_exactly. Qed.
Print Assumptions C07_req_strips_exactly.

Theorem C07_req_unwrap_only_that : forall w r, req_unwrap w = Ok r -> w = [] :: r /\ r <> [].
Proof. exact req_unwrap_ok_inv. Qed.
Print Assumptions C07_req_unwrap_only_that.

(** REP hands over exactly the frames after the FIRST empty delimiter, whatever empty frames the
    payload contains, for any routing prefix of non-empty identity frames *)
Theorem C07_rep_split_exact : forall ids p, nonempty_frames ids -> p <> [] ->
  rep_split (ids ++ [] :: p) = Ok (ids ++ [[]], p).
Proof. exact rep_split_exact. Qed.
Print Assumptions C07_rep_split_exact.

(** the reply is prefixed with exactly the frames that preceded and included the delimiter *)
Theorem C07_rep_reply_retraces : forall ids r, rep_wrap (Some (ids ++ [[]])) r = ids ++ [] :: r.
Proof. intros ids r. unfold rep_wrap. rewrite <- app_assoc. reflexivity. Qed.
Print Assumptions C07_rep_reply_retraces.

(** never a message with zero frames; envelope and payload partition the request *)
Theorem C07_never_zero_frames : forall w env data, rep_split w = Ok (env, data) ->
  data <> [] /\ env ++ data = w /\ env <> [].
Proof. exact rep_split_never_zero_frames. Qed.
Print Assumptions C07_never_zero_frames.

Theorem C07_delimiter_last_refused : forall ids, nonempty_frames ids -> rep_split (ids ++ [[]]) = Err EOther.
Proof. intros ids Hids. exact (rep_split_at ids [] Hids). Qed.
Print Assumptions C07_delimiter_last_refused.

(** request through any number of identity-adding hops, reply stripped hop by hop: both payloads intact *)
Theorem C07_end_to_end : forall ids p r env data, nonempty_frames ids -> p <> [] -> r <> [] ->
  rep_split (ids ++ req_wrap p) = Ok (env, data) ->
  data = p /\ req_unwrap (skipn (length ids) (rep_wrap (Some env) r)) = Ok r.
Proof.
  intros ids p r env data Hids Hp Hr H. rewrite C07_req_adds_one_delimiter in H.
  rewrite C07_rep_split_exact in H by assumption. inversion H; subst.
  split; [reflexivity|]. rewrite C07_rep_reply_retraces.
  rewrite BytesProofs.skipn_app_exact by reflexivity.
  apply C07_req_strips_exactly; assumption.
Qed.
Print Assumptions C07_end_to_end.

(** non-vacuity *)
Example C07_example :
  rep_split ([[7]; [8; 9]] ++ [] :: [[1]; []; [2]]) = Ok ([[7]; [8; 9]; []], [[1]; []; [2]]).
Proof. vm_compute. reflexivity. Qed.

(** over the wire, composed with the codec (C01/C02) and the fair queue (C05): a REQ socket writes exactly one
    empty delimiter and the payload ... *)
Theorem C07_wire_request : forall k p,
  World.run (world0 REQ) [OAttach k None; OSend p; OWire k] =
  [BAtt k None; BSendOk; BWire k (encode_frames ([] :: p))].
Proof. exact ReqRepWire.req_request_on_the_wire. Qed.
Print Assumptions C07_wire_request.

(** ... a REP socket receiving those bytes in ANY chunking, possibly behind routing identities [ids] added by
    intermediaries, hands over exactly the payload, its reply retraces the envelope, a second reply is refused ... *)
Theorem C07_wire_rep_serves : forall j ids p r chunks,
  nonempty_frames ids -> p <> [] -> CodecEnc.wf_msg (ids ++ [] :: p) ->
  concat chunks = encode_frames (ids ++ [] :: p) ->
  World.run (world0 REP) (OAttach j None :: map (OFeed j) chunks ++ [ORecv; OSend r; OWire j; OSend r]) =
  [BAtt j None; BRecv None p; BSendOk; BWire j (encode_frames (ids ++ [] :: r)); BSendErr EReturnToSender (Some r)].
Proof. exact ReqRepWire.rep_serves_over_the_wire. Qed.
Print Assumptions C07_wire_rep_serves.

(** ... and the REQ socket receiving the reply's bytes in any chunking returns exactly the reply's payload,
    refuses a second recv and then accepts the next request (C08's alternation, over the wire) *)
Theorem C07_wire_reply : forall k p r p2 chunks,
  r <> [] -> CodecEnc.wf_msg ([] :: r) ->
  concat chunks = encode_frames ([] :: r) ->
  World.run (world0 REQ) (OAttach k None :: OSend p :: OWire k :: map (OFeed k) chunks ++ [ORecv; ORecv; OSend p2; OWire k]) =
  [BAtt k None; BSendOk; BWire k (encode_frames ([] :: p)); BRecv None r; BRecvErr EOther; BSendOk; BWire k (encode_frames ([] :: p2))].
Proof. exact ReqRepWire.req_reply_over_the_wire. Qed.
Print Assumptions C07_wire_reply.
