(** C05 - Receive delivers each peer's messages exactly once, whole and in order.  Property theorems only.
    Fair-queue level: for EVERY interleaving of the receiver's critical sections with wakes, inserts,
    removes and arrivals (labels of Model/FairQueue.v), with no assumption on the environment. *)
From ZV Require Import Base.Bytes Base.Res Model.Codec Model.FairQueue Proofs.FairQueueProofs Proofs.Decoder Proofs.CodecRoundtrip Spec.Stream.
From ZV Require Model.World Proofs.WorldStreamDefs Proofs.WorldStream Proofs.CodecEnc Proofs.WorldWire.

(** everything a stream yielded has been returned exactly once, in the stream's order; nothing is
    lost, duplicated or reordered, whatever the schedule *)
Theorem C05_fq_exactly_once_in_order : forall b ls q es k,
  run (fq0 b) ls = (q, es) ->
  delivered k es ++ in_flight q k ++ s_items (the_src q k) = arrived k ls.
Proof. exact fq_exactly_once_in_order. Qed.
Print Assumptions C05_fq_exactly_once_in_order.

(** a registered stream that was never removed and never ended is still in the queue (or being polled) *)
Theorem C05_fq_no_stream_lost : forall b ls q es k, run (fq0 b) ls = (q, es) ->
  In (LInsert k) ls -> ~ In (LRemove k) ls -> ~ In (LClose k) ls ->
  In k (f_streams q) \/ checked_out q = Some k.
Proof. exact fq_no_stream_lost. Qed.
Print Assumptions C05_fq_no_stream_lost.

(** per connection, what is handed to the queue is the declarative reading of the connection's byte
    stream (whole multipart messages, frame boundaries preserved), for every chunking: C02 *)
Theorem C05_stream_items_are_spec : forall chunks, lib_items chunks false = spec_items (concat chunks).
Proof. exact Proofs.CodecRoundtrip.chunks_eq_spec. Qed.
Print Assumptions C05_stream_items_are_spec.

(** the same at the level of the whole socket model (Model/World.v: byte-accurate connections, decoder,
    fair queue, disconnect on error), for the six socket types with a fair queue: whatever the
    interleaving of arrivals (any chunking), closes and recv calls, the items handed out for
    connection k are a prefix of the declarative reading of what k's peer wrote - in order, each once,
    nothing invented ... *)
Theorem C05_world_in_order_exactly_once : forall t cs es k,
  World.has_fq t = true -> NoDup cs -> In k cs ->
  WorldStreamDefs.is_prefix_of
    (WorldStreamDefs.outs_of k (fst (WorldStreamDefs.wrun (WorldStreamDefs.attached t cs) es)))
    (WorldStreamDefs.expected (WorldStreamDefs.chunks_of k es) (WorldStreamDefs.closed_of k es)).
Proof. intros t cs es k Ht _ Hk. exact (WorldStream.world_stream_prefix t cs es k Ht Hk). Qed.
Print Assumptions C05_world_in_order_exactly_once.

(** ... and nothing is lost: when a recv finds nothing to hand out, every connection has been read to
    the end of what its peer wrote so far *)
Theorem C05_world_nothing_lost : forall t cs es rs w,
  World.has_fq t = true -> NoDup cs ->
  WorldStreamDefs.wrun (WorldStreamDefs.attached t cs) (es ++ [WorldStreamDefs.WNext]) = (rs, w) -> last rs None = None ->
  forall k, In k cs -> WorldStreamDefs.outs_of k rs = WorldStreamDefs.expected (WorldStreamDefs.chunks_of k es) (WorldStreamDefs.closed_of k es).
Proof. intros t cs es rs w Ht _. exact (WorldStream.world_stream_complete t cs es rs w Ht). Qed.
Print Assumptions C05_world_nothing_lost.

(** end to end over the wire (C01 + C02 + C10 composed with the above): what a PUSH or DEALER socket
    writes for a sequence of messages ... *)
Theorem C05_wire_sender : forall t k ms,
  t = PUSH \/ t = DEALER ->
  World.run (World.world0 t) (World.OAttach k None :: map World.OSend ms ++ [World.OWire k]) =
  World.BAtt k None :: repeat World.BSendOk (length ms) ++ [World.BWire k (concat (map encode_frames ms))].
Proof.
  intros t k ms Ht.
  assert (NoDup [k]) as Hnd by (constructor; [intros []|constructor]).
  pose proof (PushDistribution.push_distributes t [k] ms Ht Hnd ltac:(discriminate)) as R.
  cbn [map app length seq combine fst snd] in R. rewrite PushDistribution.share_one in R. exact R.
Qed.
Print Assumptions C05_wire_sender.

(** ... arriving in ANY chunks, comes out of a PULL or DEALER socket's recv as exactly those messages,
    whole and in order, and one more recv finds nothing; a ROUTER labels each with the sender *)
Theorem C05_wire_receiver : forall t k ms chunks,
  t = PULL \/ t = DEALER ->
  Forall CodecEnc.wf_msg ms -> concat chunks = concat (map encode_frames ms) ->
  World.run (World.world0 t) (World.OAttach k None :: map (World.OFeed k) chunks ++ repeat World.ORecv (S (length ms))) =
  World.BAtt k None :: map (World.BRecv None) ms ++ [World.BRecvPending].
Proof.
  intros t k ms chunks Ht Hall Hc.
  destruct (WorldWireLemmas.fq_wire t k (fun _ _ => True)) with (ms := ms) (chunks := chunks) (ops := @nil World.op)
    as (w' & R & _); auto.
  - destruct Ht as [-> | ->]; reflexivity.
  - rewrite app_nil_r in R. destruct Ht as [-> | ->]; exact R.
Qed.
Print Assumptions C05_wire_receiver.

Theorem C05_wire_receiver_router : forall k ms chunks,
  Forall CodecEnc.wf_msg ms -> concat chunks = concat (map encode_frames ms) ->
  World.run (World.world0 ROUTER) (World.OAttach k None :: map (World.OFeed k) chunks ++ repeat World.ORecv (S (length ms))) =
  World.BAtt k None :: map (World.BRecv (Some k)) ms ++ [World.BRecvPending].
Proof.
  intros k ms chunks Hall Hc.
  destruct (WorldWireLemmas.fq_wire ROUTER k (fun _ _ => True)) with (ms := ms) (chunks := chunks) (ops := @nil World.op)
    as (w' & R & _); auto.
  rewrite app_nil_r in R. exact R.
Qed.
Print Assumptions C05_wire_receiver_router.
