(** C04 - Handshake accepts exactly the well-formed, RFC-compatible peers.  Property theorems only. *)
From ZV Require Import Base.Bytes Base.Res Spec.Compat Model.Codec Model.Handshake Proofs.HandshakeProofs.

(** the tables of the code are the ones the model uses (regenerated on every run) *)
Theorem C04_gen_tables :
  Gen.discriminants = map (fun s => (stype_name s, stype_idx s)) all_stypes /\
  Gen.as_str_table = map (fun s => (stype_name s, stype_name s)) all_stypes /\
  Gen.from_bytes_table = map (fun s => (stype_name s, stype_name s)) all_stypes /\
  Gen.max_id = 255 /\ Gen.id_guard_is_gt = 1 /\ Gen.version_cmp_is_ge = 1 /\
  Gen.gr_default_major = 3 /\ Gen.gr_default_minor = 0.
Proof. repeat split; reflexivity. Qed.
Print Assumptions C04_gen_tables.

(** the compatibility lookup is defined for all 12 x 12 pairs, equals the RFC relation, is symmetric
    (finite domain: exhaustive vm_compute sweep lifted with forallb_forall) *)
Theorem C04_compat_is_rfc : forall a b, compatible a b = Ok (rfc_compat (sname_of a) (sname_of b)).
Proof. exact compat_is_rfc. Qed.
Print Assumptions C04_compat_is_rfc.

Theorem C04_compat_symmetric : forall a b, compatible a b = compatible b a.
Proof. intros a b. rewrite !compat_is_rfc, rfc_compat_symmetric. reflexivity. Qed.
Print Assumptions C04_compat_symmetric.

Theorem C04_compat_total : forall a b, exists v, compatible a b = Ok v.
Proof. exact compat_total. Qed.
Print Assumptions C04_compat_total.

Theorem C04_names_roundtrip : forall s, stype_of_name (stype_name s) = Some s.
Proof. exact stype_of_name_name. Qed.
Print Assumptions C04_names_roundtrip.

(** version >= 3.0, nothing else *)
Theorem C04_version_rule : forall g,
  negotiate g = Ok tt <-> (3 < g_major g \/ (g_major g = 3 /\ 0 <= g_minor g)).
Proof. exact negotiate_iff. Qed.
Print Assumptions C04_version_rule.

(** greeting accepted iff signature octets 0 and 9, length 64, mechanism NULL / PLAIN / CURVE *)
Theorem C04_greeting_rule : forall v g,
  parse_greeting v = Ok g <->
  lenN v = 64 /\ nth 0 v 0 = 255 /\ nth 9 v 0 = 127 /\
  parse_mech (firstn 20 (skipn 12 v)) = Ok (g_mech g) /\
  g_major g = nth 10 v 0 /\ g_minor g = nth 11 v 0 /\ g_server g = (nth 32 v 0 =? 1).
Proof. exact parse_greeting_iff. Qed.
Print Assumptions C04_greeting_rule.

Theorem C04_mechanism_rule : forall v m, parse_mech v = Ok m <-> until_nul v = mech_name m.
Proof. exact parse_mech_iff. Qed.
Print Assumptions C04_mechanism_rule.

(** READY accepted iff Socket-Type present, known and RFC-compatible, Identity <= 255 bytes;
    registered identity = announced, or fresh when absent / empty *)
Theorem C04_ready_rule : forall local props i,
  ready_decision local (Some (OItem (ICommand props))) = Ok i <-> ready_valid local props i.
Proof. exact ready_decision_iff. Qed.
Print Assumptions C04_ready_rule.

Theorem C04_verdict_iff : forall local chunks eof i,
  handshake_verdict local chunks eof = Accept i <->
  exists g props rest,
    lib_items chunks eof = OItem (IGreeting g) :: OItem (ICommand props) :: rest /\
    negotiate g = Ok tt /\ ready_valid local props i.
Proof. exact verdict_iff. Qed.
Print Assumptions C04_verdict_iff.

(** accepted peers are registered exactly once, nobody else is disturbed *)
Theorem C04_registered_once : forall has_rr has_fq k t,
  count_occ (list_eq_dec N.eq_dec) (t_peers (register has_rr has_fq k t)) k = 1%nat /\
  (has_fq = true -> count_occ (list_eq_dec N.eq_dec) (t_fq (register has_rr has_fq k t)) k = 1%nat) /\
  (has_rr = true -> ~ In k (t_rr t) -> count_occ (list_eq_dec N.eq_dec) (t_rr (register has_rr has_fq k t)) k = 1%nat) /\
  (forall x, x <> k ->
     count_occ (list_eq_dec N.eq_dec) (t_peers (register has_rr has_fq k t)) x = count_occ (list_eq_dec N.eq_dec) (t_peers t) x /\
     count_occ (list_eq_dec N.eq_dec) (t_rr (register has_rr has_fq k t)) x = count_occ (list_eq_dec N.eq_dec) (t_rr t) x /\
     count_occ (list_eq_dec N.eq_dec) (t_fq (register has_rr has_fq k t)) x = count_occ (list_eq_dec N.eq_dec) (t_fq t) x).
Proof. exact register_once. Qed.
Print Assumptions C04_registered_once.

(** a connection that is not accepted leaves the socket's tables unchanged *)
Theorem C04_rejected_is_inert : forall has_rr has_fq fresh a t,
  (forall i, a <> Accept i) -> connection_event has_rr has_fq fresh a t = t.
Proof. exact rejected_is_inert. Qed.
Print Assumptions C04_rejected_is_inert.
