(** C19 - Endpoint parsing is total, strict, and round-trips through its text form.  Property theorems only.
    [parse6] / [fmt6] stand for std::net's IPv6 text form; what is assumed of them appears as the
    premises [ip6_text_laws] of the theorems that need it (exercised by the differential run). *)
From ZV Require Import Base.Bytes Model.Endpoint Proofs.EndpointProofs.

Definition ip6_chars_law (parse6 : str -> option (list N)) : Prop :=
  forall s g, parse6 s = Some g -> forallb is_ip6_char s = true /\ In ch_colon s /\ (2 <= length s)%nat.
Definition ip6_print_law (parse6 : str -> option (list N)) (fmt6 : list N -> str) : Prop :=
  forall s g, parse6 s = Some g -> parse6 (fmt6 g) = Some g.

(** total: parsing is a total function of the string (type [option endpoint]); the only slice the
    code takes, s[1..len-1], is taken only where it is in range and on character boundaries *)
Theorem C19_total_slice_safe : forall c0 t, let s := c0 :: t in
  (c0 =? ch_lbr) && (4 <=? utf8_len s) && (last s 0 =? ch_rbr) = true ->
  utf8_len1 c0 = 1 /\ utf8_len1 (last s 0) = 1 /\ (2 <= length s)%nat.
Proof. exact bracket_guard_safe. Qed.
Print Assumptions C19_total_slice_safe.

Theorem C19_host_never_fails : forall parse6 h, h <> [] -> exists hst, parse_host parse6 h = Some hst.
Proof.
  intros parse6 [|c0 t] Hh; [contradiction|]. rewrite parse_host_cons.
  destruct (parse4 (c0 :: t)); [eauto|].
  destruct (parse6 _); eauto.
Qed.
Print Assumptions C19_host_never_fails.

(** strict: accepted iff lower-case tcp://host:port with non-empty host (no newline) and a decimal
    port 0..65535, or ipc://path with a non-empty path - nothing else *)
Theorem C19_strict : forall parse6 s e, parse_endpoint parse6 s = Some e <-> Accepts parse6 s e.
Proof. exact parse_iff_accepts. Qed.
Print Assumptions C19_strict.

(** round trip through the text form *)
Theorem C19_roundtrip : forall parse6 fmt6, ip6_chars_law parse6 -> ip6_print_law parse6 fmt6 ->
  forall s e, parse_endpoint parse6 s = Some e -> parse_endpoint parse6 (fmt_endpoint fmt6 e) = Some e.
Proof. exact roundtrip. Qed.
Print Assumptions C19_roundtrip.

(** literals are addresses, never domain names *)
Theorem C19_ipv4_literal : forall parse6 h ip, parse4 h = Some ip -> parse_host parse6 h = Some ip.
Proof. exact ipv4_literal_is_address. Qed.
Print Assumptions C19_ipv4_literal.

Theorem C19_ipv6_literal_bare : forall parse6, ip6_chars_law parse6 ->
  forall h g, parse6 h = Some g -> parse_host parse6 h = Some (HIp6 g).
Proof. exact ipv6_literal_bare. Qed.
Print Assumptions C19_ipv6_literal_bare.

Theorem C19_ipv6_literal_bracketed : forall parse6, ip6_chars_law parse6 ->
  forall h g, parse6 h = Some g -> parse_host parse6 ([ch_lbr] ++ h ++ [ch_rbr]) = Some (HIp6 g).
Proof. exact ipv6_literal_bracketed. Qed.
Print Assumptions C19_ipv6_literal_bracketed.

Theorem C19_port_text : forall n, n <= 65535 -> dec_val (dec_str n) = n.
Proof. exact dec_val_dec_str. Qed.
Print Assumptions C19_port_text.
