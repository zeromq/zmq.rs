(** C16 - A failed or closed peer is isolated, forgotten, and its connection released.  Property theorems only.
    (Known class not covered: a stream that ends cleanly between messages is dropped by the fair
    queue without telling the backend - KNOWN_FINDINGS clean-eof-keeps-write-half.) *)
From ZV Require Import Base.Bytes Base.Res Model.Codec Model.World Proofs.SocketProofs Proofs.LifecycleProofs.
From ZV Require Proofs.WorldStreamDefs Proofs.WorldStream Proofs.WorldErrors.

(** structure re-read from the source on every run: every path on which a socket sees a connection
    fail removes the peer (table entry, stream) *)
Theorem C16_gen_structure :
  Gen.rep_disconnect_removes_stream = 1 /\ Gen.sub_disconnect_removes_stream = 1 /\ Gen.dealer_error_disconnects = 1 /\
  Gen.router_send_error_disconnects = 1 /\ Gen.rep_send_error_disconnects = 1 /\
  Gen.req_send_error_disconnects = 1 /\ Gen.req_recv_error_disconnects = 1.
Proof. repeat split; reflexivity. Qed.
Print Assumptions C16_gen_structure.

(** events on one connection leave every other connection untouched *)
Theorem C16_feed_others_unaffected : forall w k b j, j <> k -> get_conn j (w_conns (do_feed w k b)) = get_conn j (w_conns w).
Proof. intros w k b j Hj. rewrite WorldBasics.do_feed_get. destruct (N.eqb_spec j k); [contradiction|reflexivity]. Qed.
Print Assumptions C16_feed_others_unaffected.

Theorem C16_eof_others_unaffected : forall w k j, j <> k -> get_conn j (w_conns (do_eof w k)) = get_conn j (w_conns w).
Proof. intros w k j Hj. rewrite WorldBasics.do_eof_get. destruct (N.eqb_spec j k); [contradiction|reflexivity]. Qed.
Print Assumptions C16_eof_others_unaffected.

(** a stream error surfaced by recv disconnects exactly that peer, and is reported once: the stream
    is no longer registered, and the fair queue only ever yields items of registered streams *)
Theorem C16_error_disconnects : forall n w k e w1, has_fq (w_type w) = true -> w_type w <> ROUTER ->
  fq_next (S (length (w_heap w)) + length (w_conns w) + 2) w = (FItem k (OErr e), w1) ->
  recv_fq (S n) w = (BRecvErr e, peer_disconnected w1 k).
Proof.
  intros n w k e w1 Hfq Hr H. cbn [recv_fq]. rewrite H. cbv zeta.
  destruct (w_type w); try reflexivity. congruence.
Qed.
Print Assumptions C16_error_disconnects.

Theorem C16_router_error_disconnects : forall n w k e w1, w_type w = ROUTER ->
  fq_next (S (length (w_heap w)) + length (w_conns w) + 2) w = (FItem k (OErr e), w1) ->
  recv_fq (S n) w = recv_fq n (peer_disconnected w1 k).
Proof. intros n w k e w1 Ht H. cbn [recv_fq]. rewrite H, Ht. reflexivity. Qed.
Print Assumptions C16_router_error_disconnects.

Theorem C16_only_registered_streams_yield : forall fuel w k o w',
  fq_next fuel w = (FItem k o, w') -> memN k (w_streams w) = true.
Proof. exact WorldBasics.fq_next_only_registered. Qed.
Print Assumptions C16_only_registered_streams_yield.

(** forgotten and released: not in the peer table, not in the fair queue, both halves dropped;
    nobody else is touched *)
Theorem C16_disconnected_is_forgotten : forall w k,
  memN k (w_peers (peer_disconnected w k)) = false /\
  (has_fq (w_type w) = true -> memN k (w_streams (peer_disconnected w k)) = false) /\
  (forall c, get_conn k (w_conns w) = Some c -> has_fq (w_type w) = true \/ w_type w = REQ ->
     exists c', get_conn k (w_conns (peer_disconnected w k)) = Some c' /\ c_rd c' = false /\ c_wr c' = false) /\
  (forall j, j <> k -> get_conn j (w_conns (peer_disconnected w k)) = get_conn j (w_conns w) /\
                        memN j (w_peers (peer_disconnected w k)) = memN j (w_peers w) /\
                        memN j (w_streams (peer_disconnected w k)) = memN j (w_streams w)).
Proof. exact disconnected_is_forgotten. Qed.
Print Assumptions C16_disconnected_is_forgotten.

(** no later send is routed to a forgotten peer *)
Theorem C16_not_routed_round_robin : forall fuel w m b w' k, w_type w <> REQ -> memN k (w_peers w) = false ->
  send_rr fuel w m = (b, w') -> get_conn k (w_conns w') = get_conn k (w_conns w).
Proof. intros fuel w m b w' k _ Hk H. exact (send_rr_never_writes_to_dead fuel w m b w' k Hk H). Qed.
Print Assumptions C16_not_routed_round_robin.

Theorem C16_not_routed_router : forall w c m, w_type w = ROUTER -> memN c (w_peers w) = false ->
  step w (OSendTo c m) = ([BSendErr EOther None], w).
Proof. exact router_route_unknown. Qed.
Print Assumptions C16_not_routed_router.

(** over whole histories of the socket model (six fair-queue socket types, any number of connections, any
    interleaving of arrivals in any chunking, closes and recv calls).  At most one error is handed out for a
    connection, and nothing after it ... *)
Theorem C16_history_error_once : forall t cs es k pre o post,
  has_fq t = true -> NoDup cs -> In k cs ->
  WorldStreamDefs.outs_of k (fst (WorldStreamDefs.wrun (WorldStreamDefs.attached t cs) es)) = pre ++ o :: post ->
  WorldErrors.is_err o = true ->
  post = [] /\ forallb (fun x => negb (WorldErrors.is_err x)) pre = true.
Proof. intros t cs es k pre o post Ht _. exact (WorldErrors.world_error_once t cs es k pre o post Ht). Qed.
Print Assumptions C16_history_error_once.

(** ... once it has been handed out the connection is forgotten and released: not a peer, not a registered
    stream, both halves dropped ... *)
Theorem C16_history_forgotten_and_released : forall t cs es k rs w,
  has_fq t = true -> NoDup cs -> In k cs ->
  WorldStreamDefs.wrun (WorldStreamDefs.attached t cs) es = (rs, w) ->
  existsb WorldErrors.is_err (WorldStreamDefs.outs_of k rs) = true ->
  memN k (w_peers w) = false /\ memN k (w_streams w) = false /\
  (forall c, get_conn k (w_conns w) = Some c -> c_rd c = false /\ c_wr c = false).
Proof. intros t cs es k rs w Ht _. exact (WorldErrors.world_error_forgets t cs es k rs w Ht). Qed.
Print Assumptions C16_history_forgotten_and_released.

(** ... while every connection that has not failed and was not closed stays a registered peer with both halves,
    whatever happened to the others ... *)
Theorem C16_history_healthy_kept : forall t cs es k rs w,
  has_fq t = true -> NoDup cs -> In k cs ->
  WorldStreamDefs.wrun (WorldStreamDefs.attached t cs) es = (rs, w) ->
  existsb WorldErrors.is_err (WorldStreamDefs.outs_of k rs) = false -> WorldStreamDefs.closed_of k es = false ->
  memN k (w_peers w) = true /\ memN k (w_streams w) = true /\
  (exists c, get_conn k (w_conns w) = Some c /\ c_rd c = true /\ c_wr c = true).
Proof. intros t cs es k rs w Ht _. exact (WorldErrors.world_healthy_kept t cs es k rs w Ht). Qed.
Print Assumptions C16_history_healthy_kept.

(** ... and its traffic is delivered completely (no hypothesis about the other connections: they may fail at any point) *)
Theorem C16_history_others_unaffected : forall t cs es rs w,
  has_fq t = true -> NoDup cs ->
  WorldStreamDefs.wrun (WorldStreamDefs.attached t cs) (es ++ [WorldStreamDefs.WNext]) = (rs, w) -> last rs None = None ->
  forall k, In k cs -> WorldStreamDefs.outs_of k rs = WorldStreamDefs.expected (WorldStreamDefs.chunks_of k es) (WorldStreamDefs.closed_of k es).
Proof. intros t cs es rs w Ht _. exact (WorldStream.world_stream_complete t cs es rs w Ht). Qed.
Print Assumptions C16_history_others_unaffected.

(** the listed finding, as the model shows it: a peer that closes while nothing is buffered ends its stream
    silently - the read half goes, the peer-table entry and the write half stay *)
Theorem C16_clean_close_keeps_peer_refuted :
  WorldStreamDefs.outs_of 0 (fst (WorldStreamDefs.wrun (WorldStreamDefs.attached PULL [0]) WorldErrors.we_clean)) = [OItem (IMessage [[9]])] /\
  memN 0 (w_peers (snd (WorldStreamDefs.wrun (WorldStreamDefs.attached PULL [0]) WorldErrors.we_clean))) = true /\
  memN 0 (w_streams (snd (WorldStreamDefs.wrun (WorldStreamDefs.attached PULL [0]) WorldErrors.we_clean))) = false /\
  map (fun c => (c_rd c, c_wr c)) (w_conns (snd (WorldStreamDefs.wrun (WorldStreamDefs.attached PULL [0]) WorldErrors.we_clean))) = [(false, true)].
Proof. exact WorldErrors.world_clean_close_keeps_peer. Qed.
Print Assumptions C16_clean_close_keeps_peer_refuted.

(** * Write failures on the sending paths, over connections that answer each write from a script
      (Model/RrSend.v: PUSH / DEALER round robin; Model/DirSend.v: ROUTER, REQ) *)
From ZV Require Import Model.TrySend Model.RrSend Model.DirSend Proofs.RrSendProofs Proofs.DirSendProofs.

(** once the socket has let go of a connection - for whatever reason - nothing is ever routed to it again, it stays
    released and its wire does not change, whatever happens afterwards *)
Theorem C16_rr_gone_never_targeted : forall ops st rs st' k,
  pget k (r_peers st) = None -> ~ In k (attached ops) -> rrun st ops = (rs, st') ->
  (forall r, In r rs -> targets k r = false) /\ pget k (r_peers st') = None /\ wire_of k st' = wire_of k st.
Proof. exact gone_never_targeted. Qed.
Print Assumptions C16_rr_gone_never_targeted.

Theorem C16_rr_failed_never_targeted : forall st m k e st1 ops rs st2,
  NoDup (map p_id (r_peers st)) -> NoDup (r_rr st) ->
  RrSend.send st m = (RErr k e, st1) -> ~ In k (attached ops) -> rrun st1 ops = (rs, st2) ->
  (forall r, In r rs -> targets k r = false) /\ pget k (r_peers st2) = None /\ wire_of k st2 = wire_of k st1.
Proof.
  intros st m k e st1 ops rs st2 Hd Hr Hs Hat Hrun.
  destruct (send_err_forgets _ _ _ _ _ Hs Hd Hr) as (Hk & _ & _).
  exact (gone_never_targeted ops st1 rs st2 k Hk Hat Hrun).
Qed.
Print Assumptions C16_rr_failed_never_targeted.

(** ROUTER: a failed write forgets the peer; the next message for it is refused and writes nothing *)
Theorem C16_router_err_forgets : forall st k m k' e st', send_to st k m = (RErr k' e, st') ->
  NoDup (map p_id (r_peers st)) ->
  k' = k /\ pget k (r_peers st') = None /\ forall m2, send_to st' k m2 = (RNoPeer, st').
Proof. exact send_to_err_forgets. Qed.
Print Assumptions C16_router_err_forgets.

(** REQ: a failed request forgets the server and leaves the socket owing nothing *)
Theorem C16_req_err_forgets : forall q m k e q', req_send q m = (QErr k e, q') ->
  NoDup (map p_id (r_peers (q_base q))) ->
  pget k (r_peers (q_base q')) = None /\ q_cur q' = None.
Proof. exact req_err_forgets. Qed.
Print Assumptions C16_req_err_forgets.
