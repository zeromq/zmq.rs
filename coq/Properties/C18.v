(** C18 - bind/unbind manage independent listeners with exact endpoint bookkeeping.  Property theorems only.
    The OS is an oracle: its answers (refused, or listening on the resolved endpoint it names) are inputs. *)
From ZV Require Import Base.Bytes Model.Runtime Proofs.RuntimeProofs.

(** the bind set is exactly the set of endpoints being listened on, after every operation sequence *)
Theorem C18_table_exact : forall ops s, b_table s = b_os s -> b_table (fst (brun s ops)) = b_os (fst (brun s ops)).
Proof.
  induction ops as [|o t IH]; intros s H; cbn [brun]; [exact H|].
  apply (bstep_table_exact s o) in H. destruct (bstep s o) as [s1 x].
  specialize (IH s1 H). destruct (brun s1 t) as [s2 xs]. exact IH.
Qed.
Print Assumptions C18_table_exact.

(** a successful bind returns the resolved endpoint and adds exactly it *)
Theorem C18_bind_adds_exactly_that : forall s e, Runtime.memN e (b_os s) = false ->
  let s' := fst (bstep s (BBind (Some e))) in
  snd (bstep s (BBind (Some e))) = BOk e /\ b_table s' = Runtime.delN e (b_table s) ++ [e] /\ b_os s' = b_os s ++ [e].
Proof. intros s e H. cbn [bstep fst snd b_table b_os]. rewrite (delN_absent e _ H). repeat split. Qed.
Print Assumptions C18_bind_adds_exactly_that.

(** a failed bind changes nothing *)
Theorem C18_failed_bind_noop : forall s, bstep s (BBind None) = (s, BErrOs) /\ bstep s BBindBadText = (s, BErrParse).
Proof. intros; split; reflexivity. Qed.
Print Assumptions C18_failed_bind_noop.

(** unbind of a bound endpoint stops that one and only that one *)
Theorem C18_unbind_only_that : forall s e, Runtime.memN e (b_table s) = true ->
  let s' := fst (bstep s (BUnbind e)) in
  snd (bstep s (BUnbind e)) = BUnbound /\ Runtime.memN e (b_table s') = false /\ Runtime.memN e (b_os s') = false /\
  forall j, j <> e -> Runtime.memN j (b_table s') = Runtime.memN j (b_table s) /\ Runtime.memN j (b_os s') = Runtime.memN j (b_os s).
Proof.
  intros s e H. cbn [bstep]. rewrite H. cbn [fst snd b_table b_os].
  repeat split; try apply memN_delN_same; apply memN_delN_other; assumption.
Qed.
Print Assumptions C18_unbind_only_that.

(** unbind of anything else fails with no-such-bind and changes nothing *)
Theorem C18_unbind_unknown : forall s e, Runtime.memN e (b_table s) = false -> bstep s (BUnbind e) = (s, BNoSuchBind).
Proof. intros s e H. cbn [bstep]. rewrite H. reflexivity. Qed.
Print Assumptions C18_unbind_unknown.
