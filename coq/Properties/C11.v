(** C11 - PUB/XPUB deliver a message to a subscriber iff a subscription is a prefix.  Property theorems only. *)
From ZV Require Import Base.Bytes Base.Res Spec.PrefixMultiset Model.Codec Model.World Proofs.PubSubProofs.
From ZV Require Proofs.CodecEnc Proofs.PubSubWire Proofs.XPubWire.

Theorem C11_gen_opcodes :
  Gen.pub_op_sub = 1 /\ Gen.pub_op_unsub = 0 /\ Gen.xpub_op_sub = 1 /\ Gen.xpub_op_unsub = 0 /\
  Gen.pub_sub_frames = 1 /\ Gen.xpub_sub_frames = 1 /\ Gen.sub_op_sub = 1 /\ Gen.sub_op_unsub = 0.
Proof. repeat split; reflexivity. Qed.
Print Assumptions C11_gen_opcodes.

(** the subscription list kept per connection refines the reference multiset, for every history *)
Theorem C11_list_refines_multiset : forall h t,
  count_occ bytes_dec (fold_left on_sub_msg h []) t = count h t.
Proof. exact list_refines_multiset. Qed.
Print Assumptions C11_list_refines_multiset.

(** delivered iff some active subscription is a byte-prefix of the first frame *)
Theorem C11_deliver_iff : forall h first,
  matches (fold_left on_sub_msg h []) first = true <-> should_deliver h first.
Proof. exact deliver_iff. Qed.
Print Assumptions C11_deliver_iff.

Theorem C11_empty_matches_all : forall subs first, In [] subs -> matches subs first = true.
Proof. intros subs first H. apply matches_spec. exists [], first. split; [exact H|reflexivity]. Qed.
Print Assumptions C11_empty_matches_all.

Theorem C11_malformed_noop : forall subs m, classify m = SNoise -> on_sub_msg subs m = subs.
Proof. intros subs m H. rewrite on_sub_msg_classify, H. reflexivity. Qed.
Print Assumptions C11_malformed_noop.

Theorem C11_unsubscribe_cancels_one : forall subs t,
  count_occ bytes_dec (on_sub_msg subs [0 :: t]) t = Nat.pred (count_occ bytes_dec subs t) /\
  (forall t', t' <> t -> count_occ bytes_dec (on_sub_msg subs [0 :: t]) t' = count_occ bytes_dec subs t').
Proof.
  intros subs t. change (on_sub_msg subs [0 :: t]) with (remove_first t subs). split.
  - rewrite count_occ_remove_first, BytesProofs.bytes_eqb_refl. reflexivity.
  - intros t' Hne. rewrite count_occ_remove_first.
    destruct (BytesProofs.bytes_eqb_spec t t'); [congruence|reflexivity].
Qed.
Print Assumptions C11_unsubscribe_cancels_one.

(** one publish: exactly once to a subscriber with a matching subscription (even when several match),
    not at all otherwise; no other wire changes *)
Theorem C11_exactly_once : forall w first rest, NoDup (w_peers w) ->
  forall k c, get_conn k (w_conns w) = Some c ->
  exists c', get_conn k (w_conns (publish w (first :: rest))) = Some c' /\
    c_subs c' = c_subs c /\
    c_wire c' = c_wire c ++ (if memN k (w_peers w) && matches (c_subs c) first then encode_frames (first :: rest) else []).
Proof. exact publish_exactly_once. Qed.
Print Assumptions C11_exactly_once.

(** over the wire (C13 + C01/C02 + the above composed): the subscription messages a SUB socket writes for ANY
    history of subscribe / unsubscribe calls, arriving at a PUB socket in ANY chunking, make the PUB socket
    deliver a published message to that subscriber iff a CURRENT subscription of the SUB socket is a prefix
    of the message's first frame *)
Theorem C11_pubsub_over_the_wire : forall k j h chunks c m,
  Forall PubSubWire.sub_op h ->
  get_conn k (w_conns (PubSubWire.exec (world0 SUB) (OAttach k None :: h))) = Some c ->
  concat chunks = c_wire c ->
  m <> [] ->
  World.run (PubSubWire.exec (world0 PUB) (OAttach j None :: map (OFeed j) chunks ++ [OSettle])) [OSend m; OWire j] =
  [BSendOk; BWire j (if matches (w_subs (PubSubWire.exec (world0 SUB) (OAttach k None :: h))) (hd [] m) then encode_frames m else [])].
Proof. exact PubSubWire.pubsub_over_the_wire. Qed.
Print Assumptions C11_pubsub_over_the_wire.

(** the same for XPUB, where the subscription messages are consumed by the application's recv calls (and handed
    to it, in order) *)
Theorem C11_xpub_over_the_wire : forall k j h chunks c msgs m,
  Forall PubSubWire.sub_op h ->
  get_conn k (w_conns (PubSubWire.exec (world0 SUB) (OAttach k None :: h))) = Some c ->
  concat chunks = c_wire c ->
  c_wire c = concat (map encode_frames msgs) -> Forall CodecEnc.wf_msg msgs ->
  m <> [] ->
  World.run (world0 XPUB) (OAttach j None :: map (OFeed j) chunks ++ repeat ORecv (S (length msgs)) ++ [OSend m; OWire j]) =
  BAtt j None :: map (BRecv None) msgs ++
  [BRecvPending; BSendOk; BWire j (if matches (w_subs (PubSubWire.exec (world0 SUB) (OAttach k None :: h))) (hd [] m) then encode_frames m else [])].
Proof. exact XPubWire.xpub_over_the_wire. Qed.
Print Assumptions C11_xpub_over_the_wire.
