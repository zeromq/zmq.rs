(** C08 + C10 for REQ in closed form: a REQ socket with n connected servers that all answer sends request
    number i (from 0) - exactly one empty delimiter and the payload - to server (i mod n) in joining order,
    returns exactly that server's reply payload, and only then accepts the next request.  The proof is the
    rotation invariant of Proofs/PushDistribution.v with the per-connection reader state [caught_up]. *)
From Coq Require Import List Arith NArith Lia Bool.
From ZV Require Import Base.Bytes Base.Res Model.Codec Model.World Proofs.CodecEnc Proofs.SocketProofs
  Proofs.WorldWireLemmas
  Proofs.WorldBasics Proofs.PushDistribution.
Import ListNotations.
Open Scope N_scope.

(** request/reply cycles: send p, the server whose turn it is writes the reply (in one chunk), recv *)
Fixpoint cycles (cs : list N) (prs : list (msg * msg)) (i : nat) : list op :=
  match prs with
  | [] => []
  | (p, r) :: t =>
    OSend p :: OFeed (nth (Nat.modulo i (length cs)) cs 0) (encode_frames ([] :: r)) :: ORecv :: cycles cs t (S i)
  end.

(** the chunks [ch] the server has written so far are the encodings of the messages [ms], all of which have
    been handed out already *)
Definition caught_up (c : conn) : Prop :=
  exists ch ms, Forall wf_msg ms /\ concat ch = concat (map encode_frames ms) /\ rx c ch (map OI ms).

Lemma caught_up_new k : caught_up (new_conn k None).
Proof. exists [], []. split; [constructor|]. split; [reflexivity|apply rx_new]. Qed.

Lemma caught_up_cycle c r : caught_up c -> wf_msg ([] :: r) ->
  let c1 := feed_conn (encode_frames ([] :: r)) c in
  exists c2, poll_stream (S (length (c_inq c1))) c1 = (PItem (OItem (IMessage ([] :: r))), c2) /\
             caught_up c2 /\ c_id c2 = c_id c /\ c_wire c2 = c_wire c.
Proof.
  intros (ch & ms & Hwf & Hc & Hrx) Hwfr c1. set (b := encode_frames ([] :: r)) in *.
  assert (Forall wf_msg (ms ++ [[] :: r])) as Hwf1
    by (apply Forall_app; split; [exact Hwf|constructor; [exact Hwfr|constructor]]).
  assert (concat (ch ++ nonnil [b]) = concat (map encode_frames (ms ++ [[] :: r]))) as Hc1
    by (rewrite map_app, !concat_app, concat_nonnil, Hc; reflexivity).
  (* by the codec round trip, the one item the connection still has to offer is the reply *)
  pose proof (expected_encodings _ _ Hwf1 Hc1) as He. rewrite map_app in He.
  destruct (rx_poll c1 _ _ _ (rx_feed c ch _ b Hrx) He) as (c2 & HP & Hrx2).
  destruct (poll_keeps _ _ _ _ HP) as ((Hid & _ & _ & Hw & _) & _).
  exists c2. split; [exact HP|]. split.
  - exists (ch ++ nonnil [b]), (ms ++ [[] :: r]). split; [exact Hwf1|]. split; [exact Hc1|]. rewrite map_app. exact Hrx2.
  - destruct (feed_conn_keeps b c) as (I & W & _). split; [exact (eq_trans Hid I)|exact (eq_trans Hw W)].
Qed.

Definition rq_inv (cs : list N) (done : list msg) (w : world) : Prop :=
  rr_inv REQ caught_up cs (fun _ => []) done w /\ w_cur w = None.

Lemma rq_reply cs done w k r : rr_inv REQ caught_up cs (fun _ => []) done w -> w_cur w = Some k -> In k cs ->
  r <> [] -> wf_msg ([] :: r) ->
  exists w', (forall ops, run w (OFeed k (encode_frames ([] :: r)) :: ORecv :: ops) = BRecv None r :: run w' ops) /\
             rq_inv cs done w'.
Proof.
  intros Hinv Hcur Hin Hr Hwfr. pose proof Hinv as (T & _ & Hp & Hc).
  destruct (In_nth_error _ _ Hin) as [i Hi]. destruct (Hc i k Hi) as (c & Hg & Hq & _).
  destruct (caught_up_cycle c r Hq Hwfr) as (c3 & HP & Hq3 & Hid3 & Hw3). set (b := encode_frames ([] :: r)) in *.
  destruct (do_feed_tables w k b) as (T2 & P2 & R2 & _ & _ & U2 & _).
  pose proof (do_feed_get w k b) as G2. set (w2 := do_feed w k b) in *.
  assert (get_conn k (w_conns w2) = Some (feed_conn b c)) as Hg2 by (rewrite G2, N.eqb_refl, Hg; reflexivity).
  assert (w_cur w2 = Some k) as Hcur2 by congruence.
  assert (memN k (w_peers w2) = true) as Hlive2 by (rewrite P2; exact (Hp k Hin)).
  exists (with_cur (upd_conn w2 c3) None (w_env w2)). split.
  { intros ops. rewrite run_cons, step_feed. fold w2. cbn [app].
    rewrite run_cons, step_recv_req by congruence.
    rewrite (recv_req_reply w2 k _ c3 r Hcur2 Hlive2 Hg2 HP Hr). reflexivity. }
  split; [|reflexivity].
  apply (rr_inv_upd REQ caught_up cs _ done w _ k c3 Hinv); wsimp; try assumption.
  - intros j. rewrite get_put_conn, Hid3, (get_conn_id _ _ _ Hg), N.eqb_sym, G2.
    destruct (j =? k); reflexivity.
  - intros c0 Hc0. congruence.
Qed.

Lemma rq_run_cycles cs ops : NoDup cs -> cs <> [] -> forall prs done w,
  Forall (fun pr => snd pr <> [] /\ wf_msg ([] :: snd pr)) prs -> rq_inv cs done w ->
  exists w', World.run w (cycles cs prs (length done) ++ ops) =
             flat_map (fun pr => [BSendOk; BRecv None (snd pr)]) prs ++ World.run w' ops /\
             rq_inv cs (done ++ map fst prs) w'.
Proof.
  intros Hnd Hne. induction prs as [|[p r] t IH]; intros done w Hall [Hinv Hcur].
  - exists w. cbn [cycles map flat_map app]. rewrite app_nil_r. split; [reflexivity|split; assumption].
  - inversion Hall as [|? ? [Hr Hwf] Hall']; subst. cbn [snd] in Hr, Hwf.
    destruct (rr_inv_send REQ caught_up cs _ (fun _ _ H => H) Hnd Hne done w p (length (w_rr w)) Hinv)
      as (w1 & S1 & Hinv1 & _ & U1).
    specialize (U1 eq_refl). set (k := nth _ cs 0) in *.
    assert (In k cs) as Hin by (apply nth_In, Nat.mod_upper_bound; destruct cs; [congruence|discriminate]).
    destruct (rq_reply cs _ w1 k r Hinv1 U1 Hin Hr Hwf) as (w2 & R2 & Hinv2).
    assert (S (length done) = length (done ++ [p])) as Hlen by (rewrite app_length; cbn [length]; lia).
    destruct (IH (done ++ [p]) w2 Hall' Hinv2) as (w' & R & Hw').
    exists w'. cbn [cycles app flat_map snd map fst]. fold k.
    rewrite run_cons, step_send_rr, S1 by (right; right; split; [apply Hinv|exact Hcur]).
    cbn [app]. rewrite R2, Hlen, R. rewrite <- app_assoc in Hw'. split; [reflexivity|exact Hw'].
Qed.

Theorem req_rotation : forall cs prs,
  NoDup cs -> cs <> [] ->
  Forall (fun pr => snd pr <> [] /\ wf_msg ([] :: snd pr)) prs ->
  World.run (world0 REQ) (map (fun c => OAttach c None) cs ++ cycles cs prs 0 ++ map OWire cs) =
  map (fun c => BAtt c None) cs ++
  flat_map (fun pr => [BSendOk; BRecv None (snd pr)]) prs ++
  map (fun ic => BWire (snd ic) (concat (map (fun p => encode_frames ([] :: p)) (share (fst ic) (length cs) (map fst prs)))))
      (combine (seq 0 (length cs)) cs).
Proof.
  intros cs prs Hnd Hne Hall.
  destruct (run_attaches REQ (cycles cs prs 0 ++ map OWire cs) (or_intror (or_intror eq_refl)) cs [] _ (joined_world0 REQ))
    as (w1 & R1 & H1).
  rewrite R1. f_equal.
  destruct (rq_run_cycles cs (map OWire cs) Hnd Hne prs [] w1 Hall) as (w2 & R2 & (_ & _ & _ & Hc) & _).
  { split; [exact (rr_inv_start REQ caught_up cs w1 caught_up_new H1)|apply H1]. }
  cbn [length] in R2. rewrite R2. f_equal.
  apply (run_wires cs 0%nat w2
           (fun i => concat (map (fun p => encode_frames ([] :: p)) (share i (length cs) (map fst prs)))) Hnd).
  intros i k Hi. destruct (Hc i k Hi) as (cn & Hg & _ & Hw).
  exists cn. split; [exact Hg|exact Hw].
Qed.

Definition rr_prs : list (msg * msg) := [([[1]], [[11]]); ([[2];[]], [[];[12]]); ([[3]], [[13]]); ([[4]], [[14]]); ([[5]], [[15]])].
Example rr_sample :
  World.run (world0 REQ) (map (fun c => OAttach c None) [5;2] ++ cycles [5;2] rr_prs 0 ++ map OWire [5;2]) =
  [BAtt 5 None; BAtt 2 None;
   BSendOk; BRecv None [[11]]; BSendOk; BRecv None [[];[12]]; BSendOk; BRecv None [[13]]; BSendOk; BRecv None [[14]]; BSendOk; BRecv None [[15]];
   BWire 5 (encode_frames [[];[1]] ++ encode_frames [[];[3]] ++ encode_frames [[];[5]]);
   BWire 2 (encode_frames [[];[2];[]] ++ encode_frames [[];[4]])].
Proof. vm_compute. reflexivity. Qed.

Print Assumptions req_rotation.
