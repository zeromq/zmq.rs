(** C11 + C13 over the wire for XPUB: the subscription messages a SUB socket writes for ANY history of subscribe /
    unsubscribe calls, arriving at an XPUB socket in ANY chunking, are handed to the application by recv, in order, and
    make the XPUB socket deliver a published message to that subscriber iff a CURRENT subscription of the SUB socket is a
    prefix of the message's first frame.  An instance of [fq_wire] with [xconn] as what is known of the world. *)
From Coq Require Import List Arith NArith Lia Bool.
From ZV Require Import Model.Codec Model.World Proofs.CodecEnc Proofs.WorldBasics Proofs.WorldWireLemmas
  Proofs.PubSubWireLemmas Proofs.PubSubWire.
Import ListNotations.
Open Scope N_scope.

Lemma xconn_frame j subs w w' : fq_frame w w' -> xconn j subs w -> xconn j subs w'.
Proof.
  intros F (P & c & G & S & W). destruct (fq_frame_get _ _ _ _ F G) as (c' & G' & _ & _ & _ & W' & S' & _).
  split; [rewrite (proj1 (proj2 F)); exact P|]. exists c'. split; [exact G'|split; congruence].
Qed.

Lemma xconn_hand j ms m w : xconn j (fold_left on_sub_msg ms []) w ->
  xconn j (fold_left on_sub_msg (ms ++ [m]) []) (snd (hand_out XPUB j m w)).
Proof.
  intros (P & c & G & S & W). unfold hand_out. rewrite G, P. cbn [memN existsb snd]. rewrite N.eqb_refl. cbn [orb].
  split; [exact P|]. exists (c_with_subs c (on_sub_msg (c_subs c) m)).
  split; [apply (get_upd_conn w j c); [exact G|reflexivity]|].
  cbn [c_with_subs c_subs c_wire]. rewrite fold_left_app, S. split; [reflexivity|exact W].
Qed.

Lemma xpub_side j chunks (msgs : list msg) m : Forall wf_msg msgs -> concat chunks = concat (map encode_frames msgs) ->
  m <> [] ->
  World.run (world0 XPUB) (OAttach j None :: map (OFeed j) chunks ++ repeat ORecv (S (length msgs)) ++ [OSend m; OWire j]) =
  BAtt j None :: map (BRecv None) msgs ++
  [BRecvPending; BSendOk; BWire j (if matches (fold_left on_sub_msg msgs []) (hd [] m) then encode_frames m else [])].
Proof.
  intros Hwf Hc Hm.
  destruct (fq_wire XPUB j (fun ms w => xconn j (fold_left on_sub_msg ms []) w) eq_refl) with
    (ms := msgs) (chunks := chunks) (ops := [OSend m; OWire j]) as (w' & R & T & X); try assumption.
  - intros ms w w'. apply xconn_frame.
  - intros ms m0 w _. apply xconn_hand.
  - split; [reflexivity|]. exists (new_conn j None). split; [|split; reflexivity].
    rewrite do_attach_get, N.eqb_refl. reflexivity.
  - rewrite R, (publish_one j _ w' m (or_intror T) X Hm). reflexivity.
Qed.

(** [sub_op] and [exec] are those of Proofs/PubSubWire.v (not of Proofs/LifecycleProofs.v); [msgs] is what the
    SUB socket wrote, and exists by [sub_side] *)
Theorem xpub_over_the_wire : forall k j h chunks c msgs m,
  Forall sub_op h ->
  get_conn k (w_conns (exec (world0 SUB) (OAttach k None :: h))) = Some c ->
  concat chunks = c_wire c ->
  c_wire c = concat (map encode_frames msgs) -> Forall wf_msg msgs ->
  m <> [] ->
  World.run (world0 XPUB) (OAttach j None :: map (OFeed j) chunks ++ repeat ORecv (S (length msgs)) ++ [OSend m; OWire j]) =
  BAtt j None :: map (BRecv None) msgs ++
  [BRecvPending; BSendOk; BWire j (if matches (w_subs (exec (world0 SUB) (OAttach k None :: h))) (hd [] m) then encode_frames m else [])].
Proof.
  intros k j h chunks c msgs m Hh Hg Hc Hw Hwf Hm.
  destruct (sub_side k h c Hh Hg) as (msgs' & Hwire & Hwf' & Hsubs).
  assert (msgs' = msgs) as ->
    by (apply encodings_inj; [exact Hwf'|exact Hwf|rewrite <- Hwire, <- Hw; reflexivity]).
  change (wexec (world0 SUB) (OAttach k None :: h)) with (exec (world0 SUB) (OAttach k None :: h)) in Hsubs.
  rewrite <- Hsubs. apply xpub_side; [exact Hwf|rewrite Hc; exact Hw|exact Hm].
Qed.

Definition xp_h := [OSub [65]; OSub [65;66]; OUnsub [65]; OSub []; OUnsub [7]; OSub [65;66]].
Definition xp_wire := match get_conn 3 (w_conns (exec (world0 SUB) (OAttach 3 None :: xp_h))) with Some c => c_wire c | None => [] end.
Example xp_sample :
  World.run (world0 XPUB) (OAttach 8 None :: map (OFeed 8) [firstn 2 xp_wire; []; skipn 2 xp_wire] ++ repeat ORecv 5 ++ [OSend [[65;66;67];[1]]; OWire 8])
  = BAtt 8 None :: map (BRecv None) [[[1;65]]; [[1;65;66]]; [[0;65]]; [[1]]] ++ [BRecvPending; BSendOk; BWire 8 (encode_frames [[65;66;67];[1]])].
Proof. vm_compute. reflexivity. Qed.

Print Assumptions xpub_over_the_wire.
