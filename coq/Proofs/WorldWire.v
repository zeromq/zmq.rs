(** A sample run of a PULL socket over a stream of encoded messages cut into chunks.  The end-to-end theorems are
    C05_wire_* in Properties/C05.v, from [push_distributes] (one peer) and [fq_wire]. *)
From Coq Require Import List Arith NArith Lia Bool.
From ZV Require Import Model.Codec Model.World Proofs.CodecEnc Proofs.WorldStreamDefs Proofs.WorldWireLemmas Proofs.PushDistribution.
Import ListNotations.
Open Scope N_scope.

Definition ww_ms : list msg := [[[1;2;3];[4]]; [[]]; [[9];[];[8]]].
Definition ww_wire := concat (map encode_frames ww_ms).
Example ww_sample :
  World.run (world0 PULL) (OAttach 5 None :: map (OFeed 5) [firstn 3 ww_wire; []; firstn 4 (skipn 3 ww_wire); skipn 7 ww_wire] ++ repeat ORecv 4)
  = BAtt 5 None :: map (BRecv None) ww_ms ++ [BRecvPending].
Proof. vm_compute. reflexivity. Qed.

