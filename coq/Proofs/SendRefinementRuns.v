(** Whole runs of sends: the scripted-connection model of the round-robin send loop and the socket model stay in step
    over connections that accept every write (lifts [rr_refines_world] from one send to any number of sends). *)
From ZV Require Import Model.Codec Model.RrSend Proofs.SendRefinement.
From ZV Require Proofs.SocketProofs.
Local Open Scope N_scope.

Definition same_outcome (m : World.msg) (b : World.obs) (r : rr_res) : Prop :=
  match r with
  | ROk _ => b = World.BSendOk
  | RNoPeer => b = World.BSendErr EReturnToSender (Some m)
  | _ => False
  end.

Lemma rr_step_delta w st m : World.w_type w = PUSH \/ World.w_type w = DEALER -> rr_agrees w st ->
  lenN (encode_frames m) < 2 ^ 63 ->
  let '(b, w') := World.send_rr (S (length (World.w_rr w))) w m in
  let '(r, st') := RrSend.send st m in
  rr_agrees w' st' /\ World.w_type w' = World.w_type w /\ same_outcome m b r /\
  exists d : N -> bytes, forall j, wire_w j w' = wire_w j w ++ d j /\ wire_of j st' = wire_of j st ++ d j.
Proof.
  intros Hty Hag Hl.
  destruct (World.send_rr (S (length (World.w_rr w))) w m) as [b w'] eqn:E1.
  destruct (RrSend.send st m) as [r st'] eqn:E2.
  destruct (rr_loop (World.w_rr w) w st m m b w' r st' eq_refl Hag) as (A & T & B); [destruct Hty as [E|E]; rewrite E; reflexivity|exact Hl|exact E1|exact E2|].
  split; [exact A|]. split; [exact T|]. destruct r as [k|k e| |k]; try contradiction.
  - destruct B as (Hb & _ & B1 & B2 & B3). split; [exact Hb|].
    exists (fun j => if N.eq_dec j k then encode_frames m else []). intros j.
    destruct (N.eq_dec j k) as [->|Hjk]; [split; assumption|]. rewrite !app_nil_r. apply B3; exact Hjk.
  - destruct B as (Hb & _ & B). split; [exact Hb|].
    exists (fun _ => []). intros j. rewrite !app_nil_r. apply B.
Qed.

Theorem rr_runs_refine_world : forall ms w st,
  World.w_type w = PUSH \/ World.w_type w = DEALER -> rr_agrees w st ->
  Forall (fun m => lenN (encode_frames m) < 2 ^ 63) ms ->
  let '(bs, w') := SocketProofs.sends w ms in
  let '(rs, st') := rrun st (map RSend ms) in
  rr_agrees w' st' /\
  length bs = length ms /\ length rs = length ms /\
  (forall i m b r, nth_error ms i = Some m -> nth_error bs i = Some b -> nth_error rs i = Some r -> same_outcome m b r) /\
  exists d : N -> bytes, forall j, wire_w j w' = wire_w j w ++ d j /\ wire_of j st' = wire_of j st ++ d j.
Proof.
  induction ms as [|m ms IH]; intros w st Hty Hag Hall.
  - cbn [SocketProofs.sends map rrun]. split; [exact Hag|]. split; [reflexivity|]. split; [reflexivity|]. split.
    + intros i m b r H. destruct i; discriminate H.
    + exists (fun _ => []). intros j. rewrite !app_nil_r. split; reflexivity.
  - inversion Hall as [|m0 ms0 Hm Hms]; subst m0 ms0.
    pose proof (rr_step_delta w st m Hty Hag Hm) as H1.
    cbn [SocketProofs.sends map rrun rstep].
    destruct (World.send_rr (S (length (World.w_rr w))) w m) as [b w1].
    destruct (RrSend.send st m) as [r st1]. destruct H1 as (Hag1 & Hty1 & Hso & d1 & Hd1).
    rewrite <- Hty1 in Hty. specialize (IH w1 st1 Hty Hag1 Hms).
    destruct (SocketProofs.sends w1 ms) as [bs w2].
    destruct (rrun st1 (map RSend ms)) as [rs st2].
    destruct IH as (Hag2 & Lb & Lr & Hnth & d2 & Hd2).
    cbn [app length]. split; [exact Hag2|]. split; [congruence|]. split; [congruence|]. split.
    + intros [|i] m' b' r'; cbn [nth_error]; [|apply Hnth]. intros Hm' Hb' Hr'. inversion Hm'; inversion Hb'; inversion Hr'; subst. exact Hso.
    + exists (fun j => d1 j ++ d2 j). intros j.
      destruct (Hd2 j) as [E1 E2]. destruct (Hd1 j) as [F1 F2].
      rewrite E1, E2, F1, F2, !app_assoc. split; reflexivity.
Qed.

Print Assumptions rr_runs_refine_world.
