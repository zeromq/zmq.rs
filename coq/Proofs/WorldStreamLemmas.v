(** The lazy [poll_stream] against the eager [feed_all], and the per-connection invariant of the fair
    queue along [wrun]. *)
From Coq Require Import List Arith NArith Lia Bool.
From ZV Require Import Base.Bytes Base.Res Model.Codec Model.World Proofs.Decoder Proofs.WorldStreamDefs
  Proofs.WorldBasics.
Import ListNotations.
Open Scope N_scope.

Lemma feed_all_stopped : forall l r, rd_stop r = true -> feed_all r l = ([], r).
Proof.
  induction l as [|c l IH]; intros r H; cbn [feed_all]; [reflexivity|].
  rewrite feed_unfold, H, (IH r H). reflexivity.
Qed.

Lemma feed_all_app : forall l1 l2 r,
  feed_all r (l1 ++ l2) =
  let '(o1, r1) := feed_all r l1 in let '(o2, r2) := feed_all r1 l2 in (o1 ++ o2, r2).
Proof.
  induction l1 as [|c l1 IH]; intros l2 r; cbn [app feed_all].
  - destruct (feed_all r l2); reflexivity.
  - destruct (feed r c) as [o1 r1]. rewrite IH. destruct (feed_all r1 l1) as [oa ra].
    destruct (feed_all ra l2) as [ob rb]. rewrite app_assoc. reflexivity.
Qed.

Lemma feed_rdr_nil d b :
  feed {| rd_dec := d; rd_buf := b; rd_stop := false |} [] =
  let '(os, d', b', s) := drain (S (length b)) d b in (os, {| rd_dec := d'; rd_buf := b'; rd_stop := s |}).
Proof. rewrite feed_unfold. cbn [rd_stop rd_dec rd_buf]. rewrite app_nil_r. reflexivity. Qed.

(** The leading empty chunk drains the buffer [b] first. *)
Definition eag (d : dec) (b : bytes) (inq : list bytes) : list out * reader :=
  feed_all {| rd_dec := d; rd_buf := b; rd_stop := false |} ([] :: inq).

Lemma eag_dec1 d b inq : 1 <= waiting d ->
  eag d b inq =
  match dec1 d b with
  | (RNone, d1, b1) =>
      match inq with
      | [] => ([], {| rd_dec := d1; rd_buf := b1; rd_stop := false |})
      | ch :: rest => eag d1 (b1 ++ ch) rest
      end
  | (RItem i, d1, b1) => (OItem i :: fst (eag d1 b1 inq), snd (eag d1 b1 inq))
  | (RErr e, d1, b1) => ([OErr e], {| rd_dec := d1; rd_buf := b1; rd_stop := true |})
  | _ => eag d b inq
  end.
Proof.
  intros W. destruct (dec1 d b) as [[[|i|e|s|] d1] b1] eqn:E; try reflexivity;
    unfold eag; cbn [feed_all]; rewrite feed_rdr_nil, drain_S, E.
  - destruct inq as [|ch rest]; [reflexivity|]. cbn [feed_all].
    rewrite !feed_unfold. cbn [rd_stop rd_dec rd_buf]. rewrite app_nil_r.
    destruct (drain _ d1 (b1 ++ ch)) as [[[oa da] ba] sa]. destruct (feed_all _ rest) as [ob rb]. reflexivity.
  - unfold dec1 in E. pose proof (decode_item_strict _ _ _ _ _ _ W E) as L.
    pose proof (decode_item_state _ _ _ _ _ _ E) as W2.
    rewrite feed_rdr_nil, (drain_n_irrelevant (length b) (S (length b1)) d1 b1) by lia.
    destruct (drain (S (length b1)) d1 b1) as [[[os d2] b2] s]. destruct (feed_all _ inq) as [o2 r2]. reflexivity.
  - rewrite feed_all_stopped by reflexivity. reflexivity.
Qed.

Lemma eag_quiet d b : lenN b < waiting d ->
  eag d b [] = ([], {| rd_dec := d; rd_buf := b; rd_stop := false |}).
Proof.
  intros Q. rewrite eag_dec1 by lia. unfold dec1.
  rewrite quiet_decode; [reflexivity|unfold fuel_for; lia|exact Q].
Qed.

Lemma eag_snoc d b inq ch :
  eag d b (inq ++ [ch]) =
  let '(o2, r2) := feed (snd (eag d b inq)) ch in (fst (eag d b inq) ++ o2, r2).
Proof.
  unfold eag. rewrite app_comm_cons, feed_all_app. unfold bytes in *.
  destruct (feed_all _ ([] :: inq)) as [o1 r1]. cbn [feed_all fst snd].
  destruct (feed r1 ch) as [o2 r2]. cbn [feed_all fst snd]. rewrite app_nil_r. reflexivity.
Qed.

Definition rdr (c : conn) : reader := {| rd_dec := c_dec c; rd_buf := c_buf c; rd_stop := false |}.
Definition eager (c : conn) : list out * reader := eag (c_dec c) (c_buf c) (c_inq c).
Definition okc (c : conn) : Prop := wfd (c_dec c) /\ 1 <= waiting (c_dec c).
Definition parked (c : conn) : Prop :=
  c_inq c = [] /\ c_eof c = false /\ lenN (c_buf c) < waiting (c_dec c).

Definition poll_post (c : conn) (p : polled) (c' : conn) : Prop :=
  match p with
  | PItem (OItem i) => okc c' /\ eager c = (OItem i :: fst (eager c'), snd (eager c'))
  | PItem (OErr e) =>
      (fst (eager c) = [OErr e] /\ rd_stop (snd (eager c)) = true) \/
      (e = EIoEof /\ c_eof c = true /\ fst (eager c) = [] /\ feed_eof (snd (eager c)) = [OErr EIoEof])
  | PItem _ => False
  | PPending => okc c' /\ parked c' /\ eager c = ([], rdr c')
  | PEnded => c_eof c = true /\ fst (eager c) = [] /\ feed_eof (snd (eager c)) = [OEnd]
  end.

(** the lazy poll returns the head of the eager reading of (buffer, queued chunks); which fields of the
    connection it leaves alone is [poll_keeps] *)
Lemma poll_post_spec : forall fuel c p c',
  okc c -> (length (c_inq c) < fuel)%nat -> poll_stream fuel c = (p, c') -> poll_post c p c'.
Proof.
  induction fuel as [|f IH]; intros c p c' [W W1] Hf H; [lia|].
  cbn [poll_stream] in H. fold (dec1 (c_dec c) (c_buf c)) in H. unfold poll_post, eager. rewrite (eag_dec1 _ _ _ W1).
  destruct (dec1 (c_dec c) (c_buf c)) as [[r d1] b1] eqn:E.
  pose proof (decode_wfd _ _ _ _ _ _ W E) as Wd1.
  destruct r as [|i|e|s|].
  - pose proof (decode_none_quiet _ _ _ _ _ E) as Q.
    destruct (c_inq c) as [|ch rest].
    + cbv zeta in H. destruct (c_eof c) eqn:He; [destruct b1|]; injection H as <- <-.
      * repeat split.
      * right. repeat split.
      * split; [split; [exact Wd1|cbn [c_dec]; lia]|]. repeat split. exact Q.
    + cbn [length] in Hf.
      apply IH in H; [exact H|split; cbn [c_dec]; [exact Wd1|lia]|cbn [c_inq]; lia].
  - injection H as <- <-. split; [|reflexivity].
    split; [exact Wd1|]. cbn [c_dec]. rewrite (decode_item_state _ _ _ _ _ _ E). lia.
  - injection H as <- <-. left. split; reflexivity.
  - exfalso. exact (dec1_not_panic _ _ _ _ _ W E).
  - exfalso. exact (dec1_not_fuel _ _ _ _ E).
Qed.

Lemma parked_eager c : parked c -> eager c = ([], rdr c).
Proof.
  intros (Hi & _ & Q). unfold eager, rdr. rewrite Hi. apply eag_quiet. exact Q.
Qed.

Lemma eager_new k ann : eager (new_conn k ann) = ([], reader_pg).
Proof.
  unfold eager. cbn [new_conn c_dec c_buf c_inq]. apply eag_quiet.
  unfold lenN. cbn [length dec_post_greeting waiting]. lia.
Qed.

Lemma okc_new k ann : okc (new_conn k ann).
Proof.
  split; [reflexivity|]. cbn [new_conn c_dec dec_post_greeting waiting]. lia.
Qed.

Lemma eager_snoc c ch os b e : feed_all reader_pg ch = (os ++ fst (eager c), snd (eager c)) ->
  feed_all reader_pg (ch ++ [b]) =
  (os ++ fst (eager (c_with_in c (c_inq c ++ [b]) e)), snd (eager (c_with_in c (c_inq c ++ [b]) e))).
Proof.
  intros Hf. unfold eager. cbn [c_with_in c_dec c_buf c_inq]. rewrite eag_snoc.
  fold (eager c). rewrite feed_all_app, Hf. cbn [feed_all].
  destruct (feed (snd (eager c)) b) as [o2 r2]. cbn [fst snd].
  rewrite app_nil_r, app_assoc. reflexivity.
Qed.

Definition in_heap (k : N) (h : list (N * N)) : Prop := In k (map snd h).
Definition in_reg (k : N) (r : list (N * N)) : Prop := In k (map fst r).

Lemma in_heap_cons k p k' h : in_heap k ((p, k') :: h) <-> k' = k \/ in_heap k h.
Proof. reflexivity. Qed.

Lemma in_reg_cons k p k' r : in_reg k ((k', p) :: r) <-> k' = k \/ in_reg k r.
Proof. reflexivity. Qed.

Lemma in_heap_insert k p k' h : in_heap k (heap_insert (p, k') h) <-> k' = k \/ in_heap k h.
Proof.
  unfold in_heap. induction h as [|[q x] h IH]; cbn [heap_insert map snd fst In].
  - tauto.
  - destruct (p <? q); cbn [map snd In]; [tauto|]. rewrite IH. tauto.
Qed.

Lemma in_reg_del k k' r : in_reg k (reg_del k' r) <-> in_reg k r /\ k <> k'.
Proof.
  unfold in_reg, reg_del. induction r as [|[a p] r IH]; cbn [filter map fst In]; [tauto|].
  destruct (N.eqb_spec a k'); cbn [negb map fst In]; rewrite IH; intuition congruence.
Qed.

Lemma reg_get_none k r : reg_get k r = None -> ~ in_reg k r.
Proof.
  unfold in_reg. induction r as [|[a p] r IH]; cbn [reg_get map fst In]; [tauto|].
  destruct (N.eqb_spec a k) as [E|E]; [discriminate|]. intros H [F|F]; [contradiction|].
  exact (IH H F).
Qed.

(** k is retired: its reader stopped at an error, or its peer closed and all that was expected is handed out *)
Definition final_ok (chunks : list bytes) (closed : bool) (outs : list out) : Prop :=
  (rd_stop (snd (feed_all reader_pg chunks)) = true /\ fst (feed_all reader_pg chunks) = outs) \/
  (closed = true /\ expected chunks true = outs).

(** k is registered, in the heap or parked, and [outs] ++ what it will still yield is the eager reading of [chunks] *)
Definition live_inv (k : N) (chunks : list bytes) (closed : bool) (outs : list out) (w : world) : Prop :=
  exists c, get_conn k (w_conns w) = Some c /\ okc c /\ c_eof c = closed /\
    feed_all reader_pg chunks = (outs ++ fst (eager c), snd (eager c)) /\
    memN k (w_streams w) = true /\
    (in_heap k (w_heap w) \/ in_reg k (w_reg w)) /\
    (in_reg k (w_reg w) -> parked c).

Definition done_inv (k : N) (chunks : list bytes) (closed : bool) (outs : list out) (w : world) : Prop :=
  memN k (w_streams w) = false /\ final_ok chunks closed outs.

Definition st_inv k chunks closed outs w : Prop :=
  live_inv k chunks closed outs w \/ done_inv k chunks closed outs w.

(** what [st_inv k] looks at, and in which direction: k may move from the parked set to the heap *)
Lemma st_ext k ch cl outs w w2 :
  get_conn k (w_conns w2) = get_conn k (w_conns w) ->
  memN k (w_streams w2) = memN k (w_streams w) ->
  (in_heap k (w_heap w) \/ in_reg k (w_reg w) -> in_heap k (w_heap w2) \/ in_reg k (w_reg w2)) ->
  (in_reg k (w_reg w2) -> in_reg k (w_reg w)) ->
  st_inv k ch cl outs w -> st_inv k ch cl outs w2.
Proof.
  intros Hc Hs Hq Hr [(c & Hg & Hok & He & Hf & Hm & Hq0 & Hp)|[Hm Hfin]].
  - left. exists c. rewrite Hc, Hs. auto 10.
  - right. split; [rewrite Hs; exact Hm|exact Hfin].
Qed.

Lemma final_ok_feed ch cl outs l : final_ok ch cl outs -> final_ok (if cl then ch else ch ++ l) cl outs.
Proof.
  intros [[Hs Ho]|[Hc He]].
  - destruct cl; [left; split; assumption|]. left. rewrite feed_all_app.
    destruct (feed_all reader_pg ch) as [os r]. cbn [fst snd] in *.
    rewrite (feed_all_stopped l r Hs). cbn [fst snd]. rewrite app_nil_r. split; assumption.
  - subst cl. right. split; [reflexivity|exact He].
Qed.

Lemma final_ok_expected ch cl outs : final_ok ch cl outs -> outs = expected ch cl.
Proof.
  intros [[Hs Ho]|[-> He]]; [|symmetry; exact He].
  unfold expected. destruct (feed_all reader_pg ch) as [os r]. cbn [fst snd] in *. subst os.
  destruct cl; [|reflexivity]. unfold feed_eof. rewrite Hs. symmetry. apply app_nil_r.
Qed.

Lemma st_prefix k ch cl outs w : st_inv k ch cl outs w -> is_prefix_of outs (expected ch cl).
Proof.
  intros [(c & _ & _ & _ & Hf & _)|[_ Hfin]]; unfold is_prefix_of.
  - unfold expected. rewrite Hf. destruct cl; eexists; [rewrite <- app_assoc|]; reflexivity.
  - exists []. rewrite app_nil_r. symmetry. exact (final_ok_expected _ _ _ Hfin).
Qed.

Lemma st_complete k ch cl outs w : st_inv k ch cl outs w -> w_heap w = [] -> outs = expected ch cl.
Proof.
  intros [(c & _ & Hok & He & Hf & _ & Hq & Hp)|[_ Hfin]] Hh; [|exact (final_ok_expected _ _ _ Hfin)].
  rewrite Hh in Hq. destruct Hq as [[]|Hr]. specialize (Hp Hr).
  rewrite (parked_eager c Hp) in Hf. cbn [fst snd] in Hf.
  destruct Hp as (_ & Hce & _). rewrite Hce in He. subst cl.
  unfold expected. rewrite Hf. symmetry. apply app_nil_r.
Qed.

Lemma fq_wake_spec w k' :
  w_conns (fq_wake w k') = w_conns w /\ w_streams (fq_wake w k') = w_streams w /\
  (forall k, in_heap k (w_heap w) -> in_heap k (w_heap (fq_wake w k'))) /\
  (forall k, in_reg k (w_reg (fq_wake w k')) <-> in_reg k (w_reg w) /\ k <> k') /\
  (in_reg k' (w_reg w) -> in_heap k' (w_heap (fq_wake w k'))).
Proof.
  unfold fq_wake. destruct (reg_get k' (w_reg w)) as [p|] eqn:E; wsimp;
    (split; [reflexivity|split; [reflexivity|split; [|split]]]).
  - intros k H. apply in_heap_insert. right. exact H.
  - intros k. apply in_reg_del.
  - intros _. apply in_heap_insert. left. reflexivity.
  - auto.
  - pose proof (reg_get_none _ _ E) as Hn. intros k. split; [|tauto].
    intros H. split; [exact H|]. intros ->. exact (Hn H).
  - intros H. destruct (reg_get_none _ _ E H).
Qed.

Lemma wake_upd_other k k' ch cl outs w c2 :
  c_id c2 = k' -> k' <> k -> st_inv k ch cl outs w -> st_inv k ch cl outs (fq_wake (upd_conn w c2) k').
Proof.
  intros Hid Hne. destruct (fq_wake_spec (upd_conn w c2) k') as (Hc & Hs & Hh & Hr & _).
  apply st_ext; rewrite ?Hc, ?Hs, ?Hr; wsimp.
  - apply get_put_other. congruence.
  - reflexivity.
  - intros [H|H]; [left; apply Hh; exact H|right; split; [exact H|congruence]].
  - tauto.
Qed.

Lemma wake_upd_same k ch cl outs w c2 :
  c_id c2 = k -> okc c2 -> c_eof c2 = cl ->
  feed_all reader_pg ch = (outs ++ fst (eager c2), snd (eager c2)) ->
  memN k (w_streams w) = true -> (in_heap k (w_heap w) \/ in_reg k (w_reg w)) ->
  live_inv k ch cl outs (fq_wake (upd_conn w c2) k).
Proof.
  intros Hid Hok He Hf Hm Hq.
  destruct (fq_wake_spec (upd_conn w c2) k) as (Hc & Hs & Hh & Hr & Hw).
  exists c2. rewrite Hc, Hs, Hr. wsimp.
  split; [apply get_put_same; exact Hid|].
  split; [exact Hok|split; [exact He|split; [exact Hf|split; [exact Hm|split]]]].
  - left. destruct Hq as [H|H]; [apply Hh; exact H|apply Hw; exact H].
  - intros [_ H]. contradiction.
Qed.

Lemma closed_of_snoc k e : forall es, closed_of k (es ++ [e]) = closed_of k es || closed_of k [e].
Proof.
  induction es as [|x es IH]; [reflexivity|].
  destruct x as [k' b|k'|]; cbn [app closed_of] in *; try exact IH.
  destruct (k' =? k); [reflexivity|exact IH].
Qed.

Lemma chunks_of_snoc k e : forall es,
  chunks_of k (es ++ [e]) = if closed_of k es then chunks_of k es else chunks_of k es ++ chunks_of k [e].
Proof.
  induction es as [|x es IH]; [reflexivity|].
  destruct x as [k' b|k'|]; cbn [app chunks_of closed_of] in *.
  - destruct ((k' =? k) && negb (is_nil b)); [|exact IH].
    rewrite IH. destruct (closed_of k es); reflexivity.
  - destruct (k' =? k); [reflexivity|exact IH].
  - exact IH.
Qed.

Lemma st_feed k k' b ch cl outs w :
  st_inv k ch cl outs w ->
  st_inv k (if cl then ch else ch ++ chunks_of k [WFeed k' b]) (cl || closed_of k [WFeed k' b]) outs (do_feed w k' b).
Proof.
  intros Hst. cbn [chunks_of closed_of]. rewrite orb_false_r.
  destruct (N.eqb_spec k' k) as [->|Hne]; cbn [andb].
  - destruct Hst as [(c & Hg & Hok & He & Hf & Hm & Hq & Hp)|[Hm Hfin]].
    + unfold do_feed. rewrite Hg, He.
      destruct (is_nil b); cbn [orb negb]; [left; exists c; rewrite app_nil_r; destruct cl; auto 10|].
      destruct cl; [left; exists c; auto 10|].
      left. apply wake_upd_same; [exact (get_conn_id _ _ _ Hg)|exact Hok|reflexivity| |exact Hm|exact Hq].
      apply eager_snoc. exact Hf.
    + right. split; [rewrite do_feed_streams; exact Hm|]. apply final_ok_feed. exact Hfin.
  - rewrite app_nil_r. replace (if cl then ch else ch) with ch by (destruct cl; reflexivity).
    unfold do_feed. destruct (get_conn k' (w_conns w)) as [cn|] eqn:Hg; [|exact Hst].
    destruct (is_nil b || c_eof cn); [exact Hst|].
    apply wake_upd_other; [exact (get_conn_id _ _ _ Hg)|exact Hne|exact Hst].
Qed.

Lemma st_eof k k' ch cl outs w :
  st_inv k ch cl outs w ->
  st_inv k (if cl then ch else ch ++ chunks_of k [WEof k']) (cl || closed_of k [WEof k']) outs (do_eof w k').
Proof.
  intros Hst. cbn [chunks_of closed_of].
  replace (if cl then ch else ch ++ (if k' =? k then [] else [])) with ch
    by (destruct cl, (k' =? k); rewrite ?app_nil_r; reflexivity).
  destruct (N.eqb_spec k' k) as [->|Hne].
  - rewrite orb_true_r. pose proof (do_eof_streams w k) as S.
    destruct Hst as [(c & Hg & Hok & He & Hf & Hm & Hq & Hp)|[Hm [H|[_ He]]]].
    + unfold do_eof. rewrite Hg. left.
      apply wake_upd_same; [exact (get_conn_id _ _ _ Hg)|exact Hok|reflexivity|exact Hf|exact Hm|exact Hq].
    + right. split; [rewrite S; exact Hm|left; exact H].
    + right. split; [rewrite S; exact Hm|right; split; [reflexivity|exact He]].
  - rewrite orb_false_r.
    unfold do_eof. destruct (get_conn k' (w_conns w)) as [cn|] eqn:Hg; [|exact Hst].
    apply wake_upd_other; [exact (get_conn_id _ _ _ Hg)|exact Hne|exact Hst].
Qed.

Definition next_post (k : N) (ch : list bytes) (cl : bool) (outs : list out) (r : fq_res) (w' : world) : Prop :=
  match r with
  | FPending => w_heap w' = [] /\ st_inv k ch cl outs w'
  | FItem k' o =>
      if k' =? k then
        match o with
        | OItem i => live_inv k ch cl (outs ++ [o]) w'
        | OErr e => final_ok ch cl (outs ++ [o])
        | _ => False
        end
      else st_inv k ch cl outs w'
  end.

(** [st_inv k] is an invariant of every internal move of the queue: another connection's event leaves
    everything [st_ext] looks at alone; k's own event is read off [poll_post] - an item extends [outs], a
    pending poll parks k, a clean end retires it *)
Lemma fq_next_spec k ch cl outs : forall fuel w r w',
  (length (w_heap w) < fuel)%nat -> fq_next fuel w = (r, w') ->
  st_inv k ch cl outs w -> next_post k ch cl outs r w'.
Proof.
  intros fuel w r w' Hfu H Hst.
  enough (match r with FPending => st_inv k ch cl outs w' | _ => next_post k ch cl outs r w' end) as X.
  { destruct r; [exact X|]. split; [exact (fq_next_pending_empty _ _ _ Hfu H)|exact X]. }
  refine (fq_next_rule (st_inv k ch cl outs) (fun r w' => match r with FPending => _ | _ => _ end)
            _ _ fuel w r w' Hst H); [auto|].
  clear. intros w p k' h Hst Hh w1.
  destruct (N.eqb_spec k' k) as [->|Hne].
  - destruct Hst as [(c & Hg & Hok & He & Hf & Hm & Hq & Hp)|[Hm Hfin]].
    2:{ split; [intros _; right; split; assumption|]. intros c pl c' Hm'. congruence. }
    split; [intros [E|E]; congruence|]. intros c0 pl c' _ Hg0 HP. rewrite Hg in Hg0. injection Hg0 as <-.
    destruct (poll_keeps _ _ _ _ HP) as ((Hid & _ & He' & _) & _). rewrite (get_conn_id _ _ _ Hg) in Hid.
    apply poll_post_spec in HP; [|exact Hok|lia].
    unfold poll_post in HP. destruct pl as [[i|e|s|]| |]; try contradiction; cbn [next_post];
      rewrite ?N.eqb_refl; unfold fq_item, fq_park, fq_end; subst w1.
    + (* item *) destruct HP as [Hok' Hea]. exists c'. wsimp. rewrite (get_put_same _ _ _ Hid), in_heap_insert, in_reg_del.
      repeat split; try apply Hok'; try congruence; try tauto.
      rewrite Hf, Hea. cbn [fst snd]. rewrite <- app_assoc. reflexivity.
    + (* error *) destruct HP as [[Hfe Hse]|(-> & Hce & Hfe & Hee)].
      * left. rewrite Hf, Hfe. split; [exact Hse|reflexivity].
      * right. split; [congruence|]. unfold expected. rewrite Hf, Hfe, Hee, app_nil_r. reflexivity.
    + (* pending *) destruct HP as (Hok' & Hpk & Hea). left. exists c'. wsimp.
      rewrite (get_put_same _ _ _ Hid), (parked_eager c' Hpk), in_reg_cons. rewrite Hea in Hf.
      repeat split; try apply Hok'; try apply Hpk; try congruence; tauto.
    + (* ended *) destruct HP as (Hce & Hfe & Hee). right. wsimp. split; [apply memN_delN_same|].
      right. split; [congruence|]. unfold expected. rewrite Hf, Hfe, Hee, !app_nil_r. reflexivity.
  - assert (k <> k') as Hne' by congruence.
    assert (st_inv k ch cl outs w1) as Pop.
    { revert Hst. apply st_ext; subst w1; wsimp; try reflexivity; [|tauto].
      rewrite Hh, in_heap_cons. intros [[E|E]|E]; [congruence|left; exact E|right; exact E]. }
    split; [intros _; exact Pop|]. intros c pl c' _ Hg HP.
    apply poll_id in HP. rewrite (get_conn_id _ _ _ Hg) in HP.
    assert (forall l, get_conn k (put_conn c' l) = get_conn k l) as Put by (intros l; apply get_put_other; congruence).
    destruct pl as [o| |]; cbn [next_post]; [destruct (N.eqb_spec k' k); [contradiction|]| |];
      revert Pop; apply st_ext; unfold fq_item, fq_park, fq_end; subst w1; wsimp;
      rewrite ?Put, ?in_heap_insert, ?in_reg_cons, ?in_reg_del; rewrite ?memN_delN_other by congruence;
      try reflexivity; try tauto.
    apply get_put_other. cbn [c_with_halves c_id]. congruence.
Qed.

Lemma wstep_next w :
  wstep w WNext =
  match fq_next (next_fuel w) w with
  | (FItem k o, w') => (Some (k, o), match o with OItem _ => w' | _ => peer_disconnected w' k end)
  | (FPending, w') => (None, w')
  end.
Proof. cbn [wstep]. destruct (fq_next _ w) as [[k [i|e|s|]|] w']; reflexivity. Qed.

Lemma wstep_rule w (Q : wev -> option (N * out) -> world -> Prop) :
  (forall k b, Q (WFeed k b) None (do_feed w k b)) ->
  (forall k, Q (WEof k) None (do_eof w k)) ->
  (forall fr w0, fq_next (next_fuel w) w = (fr, w0) ->
     match fr with
     | FItem k o => Q WNext (Some (k, o)) (match o with OItem _ => w0 | _ => peer_disconnected w0 k end)
     | FPending => Q WNext None w0
     end) ->
  forall e r w', wstep w e = (r, w') -> Q e r w'.
Proof.
  intros Hf He Hn e r w' H. destruct e as [k b|k|]; [| |rewrite wstep_next in H]; cbn [wstep] in H.
  - injection H as <- <-. apply Hf.
  - injection H as <- <-. apply He.
  - destruct (fq_next (next_fuel w) w) as [[k o|] w0]; injection H as <- <-; exact (Hn _ _ eq_refl).
Qed.

Lemma wstep_type w : forall e r w', wstep w e = (r, w') -> w_type w' = w_type w.
Proof.
  apply (wstep_rule w (fun _ _ w' => w_type w' = w_type w)).
  - intros k b. apply do_feed_tables.
  - intros k. apply do_eof_tables.
  - intros [k o|] w0 HN; apply fq_next_type in HN; [|exact HN].
    destruct o; [exact HN|..]; rewrite (proj1 (pd_tables w0 k)); exact HN.
Qed.

Lemma st_pd k k' ch cl outs w : has_fq (w_type w) = true ->
  (if k' =? k then final_ok ch cl outs else st_inv k ch cl outs w) ->
  st_inv k ch cl outs (peer_disconnected w k').
Proof.
  intros Ht. destruct (pd_tables w k') as (_ & _ & _ & Hh & _ & S & Hr & _). rewrite Ht in S.
  destruct (N.eqb_spec k' k) as [->|Hne].
  - intros Hfin. right. split; [rewrite S; apply memN_delN_same|exact Hfin].
  - apply st_ext; rewrite ?S, ?Hh, ?Hr, ?pd_get; try tauto.
    + destruct (N.eqb_spec k k'); [congruence|reflexivity].
    + apply memN_delN_other. congruence.
Qed.

Lemma st_step k ch cl outs w : has_fq (w_type w) = true -> st_inv k ch cl outs w ->
  forall e r w', wstep w e = (r, w') ->
  st_inv k (if cl then ch else ch ++ chunks_of k [e]) (cl || closed_of k [e]) (outs ++ outs_of k [r]) w'.
Proof.
  intros Ht Hst. apply wstep_rule.
  - intros k' b. cbn [outs_of]. rewrite app_nil_r. apply st_feed. exact Hst.
  - intros k'. cbn [outs_of]. rewrite app_nil_r. apply st_eof. exact Hst.
  - intros fr w0 HN.
    rewrite <- (fq_next_type _ _ _ _ HN) in Ht.
    apply (fq_next_spec k ch cl outs) in HN; [|unfold next_fuel; lia|exact Hst].
    cbn [chunks_of closed_of]. rewrite app_nil_r, orb_false_r.
    replace (if cl then ch else ch) with ch by (destruct cl; reflexivity).
    destruct fr as [k' o|]; cbn [outs_of next_post] in *.
    2:{ rewrite app_nil_r. exact (proj2 HN). }
    destruct o as [i|e|s|]; [|apply st_pd; [exact Ht|]..]; destruct (k' =? k); rewrite ?app_nil_r; try exact HN.
    + left. exact HN.
    + contradiction.
    + contradiction.
Qed.

Lemma wstep_none_drained w w' : wstep w WNext = (None, w') -> w_heap w' = [].
Proof.
  rewrite wstep_next. destruct (fq_next (next_fuel w) w) as [[k o|] w0] eqn:HN; [discriminate|].
  intros H. injection H as <-. apply fq_next_pending_empty in HN; [exact HN|unfold next_fuel; lia].
Qed.

Lemma wrun_snoc : forall es w e,
  wrun w (es ++ [e]) = let '(rs, w1) := wrun w es in let '(r, w2) := wstep w1 e in (rs ++ [r], w2).
Proof.
  induction es as [|x es IH]; intros w e; cbn [app wrun].
  - destruct (wstep w e) as [r w2]. reflexivity.
  - destruct (wstep w x) as [r1 w1]. rewrite IH. destruct (wrun w1 es) as [rs w2].
    destruct (wstep w2 e) as [r w3]. reflexivity.
Qed.

(** invariants of runs are proved event by event, from the end *)
Lemma wrun_inv t (I : list wev -> list (option (N * out)) -> world -> Prop) w0 :
  w_type w0 = t -> I [] [] w0 ->
  (forall es rs w e r w', wrun w0 es = (rs, w) -> w_type w = t -> I es rs w -> wstep w e = (r, w') ->
     I (es ++ [e]) (rs ++ [r]) w') ->
  forall es rs w, wrun w0 es = (rs, w) -> w_type w = t /\ I es rs w.
Proof.
  intros T0 I0 IS. induction es as [|e es IH] using rev_ind; intros rs w H.
  - injection H as <- <-. split; assumption.
  - rewrite wrun_snoc in H. destruct (wrun w0 es) as [rs0 w1] eqn:HR. destruct (IH rs0 w1 eq_refl) as [T1 I1].
    destruct (wstep w1 e) as [r w2] eqn:HS. injection H as <- <-.
    split; [|exact (IS _ _ _ _ _ _ HR T1 I1 HS)].
    rewrite <- T1. exact (wstep_type _ _ _ _ HS).
Qed.

Lemma outs_of_app k : forall a b, outs_of k (a ++ b) = outs_of k a ++ outs_of k b.
Proof.
  induction a as [|[[k' o]|] a IH]; intros b; cbn [app outs_of]; [reflexivity| |apply IH].
  destruct (k' =? k); rewrite IH; reflexivity.
Qed.

Lemma next_irrelevant k es :
  chunks_of k (es ++ [WNext]) = chunks_of k es /\ closed_of k (es ++ [WNext]) = closed_of k es.
Proof.
  rewrite chunks_of_snoc, closed_of_snoc. cbn [chunks_of closed_of]. rewrite app_nil_r, orb_false_r.
  destruct (closed_of k es); split; reflexivity.
Qed.

Lemma attached_snoc t cs c : attached t (cs ++ [c]) = do_attach (attached t cs) c None.
Proof. unfold attached. rewrite fold_left_app. reflexivity. Qed.

Lemma attached_inv t : has_fq t = true -> forall cs,
  w_type (attached t cs) = t /\ w_subs (attached t cs) = [] /\ w_reg (attached t cs) = [] /\
  forall k, In k cs ->
    get_conn k (w_conns (attached t cs)) = Some (new_conn k None) /\
    memN k (w_streams (attached t cs)) = true /\ in_heap k (w_heap (attached t cs)) /\
    memN k (w_peers (attached t cs)) = true.
Proof.
  intros Ht. induction cs as [|c cs IH] using rev_ind.
  - cbn. split; [reflexivity|split; [reflexivity|split; [reflexivity|]]]. intros k [].
  - destruct IH as (T1 & S1 & R1 & K1). rewrite attached_snoc.
    set (w := attached t cs) in *.
    destruct (do_attach_tables w c None) as (T2 & P2 & _ & H2 & _ & M2 & R2 & _ & _ & S2).
    rewrite T1, Ht in H2, M2. rewrite T2, S2, R2, H2, M2, P2.
    split; [exact T1|split; [exact S1|split; [exact R1|]]].
    intros k Hk. apply in_app_or in Hk. rewrite do_attach_get, in_heap_insert, !memN_snoc, (N.eqb_sym k c).
    destruct (N.eqb_spec c k) as [->|Hne].
    + rewrite S1, T1, !orb_true_r. split; [destruct t; try discriminate Ht; reflexivity|].
      destruct (memN k (w_streams w)) eqn:Hm; cbn [negb andb]; [auto|].
      rewrite memN_snoc, N.eqb_refl, orb_true_r. auto.
    + destruct Hk as [Hk|[Hk|[]]]; [|contradiction].
      destruct (K1 k Hk) as (G & M & Hp & P). rewrite memN_delN_other, P by congruence.
      destruct (memN c (w_streams w)); cbn [negb andb]; rewrite ?memN_snoc, M; auto.
Qed.

Definition Ginv (t : stype) (cs : list N) (es : list wev) (rs : list (option (N * out))) (w : world) : Prop :=
  w_type w = t /\ forall k, In k cs -> st_inv k (chunks_of k es) (closed_of k es) (outs_of k rs) w.

Lemma attached_Ginv t cs : has_fq t = true -> Ginv t cs [] [] (attached t cs).
Proof.
  intros Ht. destruct (attached_inv t Ht cs) as (T1 & _ & R1 & K1).
  split; [exact T1|]. intros k Hk. destruct (K1 k Hk) as (G & M & Hp & _).
  left. exists (new_conn k None). cbn [chunks_of closed_of outs_of feed_all].
  split; [exact G|]. split; [apply okc_new|].
  split; [reflexivity|]. split; [rewrite eager_new; reflexivity|]. split; [exact M|].
  split; [left; exact Hp|]. rewrite R1. intros [].
Qed.

Lemma wrun_Ginv t cs : has_fq t = true -> forall es rs w,
  wrun (attached t cs) es = (rs, w) -> Ginv t cs es rs w.
Proof.
  intros Ht.
  apply (wrun_inv t (fun es rs w => forall k, In k cs -> st_inv k (chunks_of k es) (closed_of k es) (outs_of k rs) w)).
  - apply (attached_inv t Ht cs).
  - apply (attached_Ginv t cs Ht).
  - intros es rs w e r w' _ T K HS k Hk. rewrite chunks_of_snoc, closed_of_snoc, outs_of_app.
    apply (st_step k _ _ _ w); [rewrite T; exact Ht|exact (K k Hk)|exact HS].
Qed.
