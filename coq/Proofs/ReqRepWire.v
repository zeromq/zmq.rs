(** C07 + C08 + C01/C02 composed over the wire: a request written by a REQ socket, arriving at a REP socket in
    ANY chunking (possibly behind routing identities added by intermediaries), is handed over as exactly the
    payload; the reply retraces the envelope; arriving at the REQ socket in any chunking it is returned as
    exactly the reply's payload, after which the next request may go out. *)
From Coq Require Import List Arith NArith Lia Bool.
From ZV Require Import Model.Codec Model.World Proofs.CodecEnc Proofs.WorldBasics Proofs.SocketProofs Proofs.WorldStreamDefs
  Proofs.WorldWireLemmas Proofs.ReqRepWireLemmas.
Import ListNotations.
Open Scope N_scope.

(** the declarative reading of the encoding of one message, in any chunking, in the shape [os ++ OI m :: rest]
    of [rep_recv_msg] and [req_recv_msg] *)
Lemma expected_one m chunks : wf_msg m -> concat chunks = encode_frames m ->
  expected (nonnil chunks) false = [] ++ OI m :: [].
Proof.
  intros Hwf Hc. apply (expected_encodings [m]); [constructor; [exact Hwf|constructor]|].
  rewrite concat_nonnil. cbn [map concat]. rewrite app_nil_r. exact Hc.
Qed.

Theorem req_request_on_the_wire : forall k p,
  World.run (world0 REQ) [OAttach k None; OSend p; OWire k] =
  [BAtt k None; BSendOk; BWire k (encode_frames ([] :: p))].
Proof.
  intros k p. rewrite run_cons, step_attach. cbn [app]. f_equal.
  destruct (req_send k [] [] [] _ p (req_attach k)) as (w1 & R1 & S1).
  rewrite run_cons, R1. cbn [app]. f_equal.
  destruct (req_wire k _ _ _ _ w1 S1) as (w2 & R2 & S2).
  rewrite run_cons, R2. reflexivity.
Qed.

(** [ids]: the routing identities in front of the delimiter, none for a directly connected REQ. *)
Theorem rep_serves_over_the_wire : forall j ids p r chunks,
  nonempty_frames ids -> p <> [] -> wf_msg (ids ++ [] :: p) ->
  concat chunks = encode_frames (ids ++ [] :: p) ->
  World.run (world0 REP) (OAttach j None :: map (OFeed j) chunks ++ [ORecv; OSend r; OWire j; OSend r]) =
  [BAtt j None; BRecv None p; BSendOk; BWire j (encode_frames (ids ++ [] :: r)); BSendErr EReturnToSender (Some r)].
Proof.
  intros j ids p r chunks Hids Hp Hwf Hc.
  pose proof (expected_one _ chunks Hwf Hc) as Hex.
  rewrite run_cons, step_attach. cbn [app]. f_equal.
  destruct (run_feeds j chunks [] [] _ [ORecv; OSend r; OWire j; OSend r] (single_attach REP j eq_refl))
    as (w1 & R1 & Hs1 & F1).
  rewrite R1. cbn [app] in Hs1.
  destruct (rep_recv_msg j _ _ w1 _ _ [] _ _ (proj1 F1) Hs1 (side_frame _ _ _ _ F1 (side_attach REP j)) Hex
              (rep_split_exact ids p Hids Hp))
    as (w2 & R2 & T2 & C2 & E2 & Hd2).
  rewrite run_cons, R2. cbn [app]. f_equal.
  destruct (rep_send j [] w2 _ r T2 C2 E2 Hd2) as (w3 & R3 & T3 & C3 & Hd3).
  rewrite run_cons, R3. cbn [app]. f_equal.
  destruct (wire_step j _ w3 Hd3) as (w4 & R4 & T4 & C4 & _).
  rewrite run_cons, R4. cbn [app]. rewrite <- app_assoc. cbn [app]. f_equal.
  rewrite run_cons, (rep_send_without_request w4 r); [reflexivity|congruence|congruence].
Qed.

Theorem req_reply_over_the_wire : forall k p r p2 chunks,
  r <> [] -> wf_msg ([] :: r) ->
  concat chunks = encode_frames ([] :: r) ->
  World.run (world0 REQ) (OAttach k None :: OSend p :: OWire k :: map (OFeed k) chunks ++ [ORecv; ORecv; OSend p2; OWire k]) =
  [BAtt k None; BSendOk; BWire k (encode_frames ([] :: p)); BRecv None r; BRecvErr EOther; BSendOk; BWire k (encode_frames ([] :: p2))].
Proof.
  intros k p r p2 chunks Hr Hwf Hc.
  pose proof (expected_one _ chunks Hwf Hc) as Hex.
  rewrite run_cons, step_attach. cbn [app]. f_equal.
  destruct (req_send k [] [] [] _ p (req_attach k)) as (w1 & R1 & S1).
  rewrite run_cons, R1. cbn [app]. f_equal.
  destruct (req_wire k _ _ _ _ w1 S1) as (w2 & R2 & S2).
  rewrite run_cons, R2. cbn [app]. f_equal.
  destruct (req_run_feeds k _ _ _ chunks [] w2 [ORecv; ORecv; OSend p2; OWire k] S2) as (w3 & R3 & S3).
  rewrite R3. cbn [app] in S3.
  destruct (req_recv_msg k _ _ _ w3 r [] Hr S3 Hex) as (w4 & R4 & S4).
  rewrite run_cons, R4. cbn [app]. f_equal.
  rewrite run_cons, (req_recv_none k _ _ _ w4 S4). cbn [app]. f_equal.
  destruct (req_send k _ _ _ w4 p2 S4) as (w5 & R5 & S5).
  rewrite run_cons, R5. cbn [app]. f_equal.
  destruct (req_wire k _ _ _ _ w5 S5) as (w6 & R6 & S6).
  rewrite run_cons, R6. reflexivity.
Qed.

Definition rq_p : msg := [[1;2];[];[3]].
Definition rq_r : msg := [[];[9]].
Definition rq_wire := encode_frames ([[7;7]] ++ [] :: rq_p).
Example rq_sample :
  World.run (world0 REP) (OAttach 4 None :: map (OFeed 4) [firstn 2 rq_wire; []; skipn 2 rq_wire] ++ [ORecv; OSend rq_r; OWire 4; OSend rq_r]) =
  [BAtt 4 None; BRecv None rq_p; BSendOk; BWire 4 (encode_frames ([[7;7]] ++ [] :: rq_r)); BSendErr EReturnToSender (Some rq_r)].
Proof. vm_compute. reflexivity. Qed.

Print Assumptions req_request_on_the_wire.
Print Assumptions rep_serves_over_the_wire.
Print Assumptions req_reply_over_the_wire.
