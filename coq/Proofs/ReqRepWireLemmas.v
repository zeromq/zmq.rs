(** Lemmas for Proofs/ReqRepWire.v.  REP with one peer: the receiving side is [single] / [recv_next] of
    Proofs/WorldWireLemmas.v, the sending side is [side].  REQ with one peer ([reqst]): round-robin send,
    and a recv that polls the requestee's own stream without the fair queue, through the reader state [rx]. *)
From Coq Require Import List Arith NArith Lia Bool.
From ZV Require Import Model.Codec Model.World Proofs.SocketProofs Proofs.WorldStreamDefs Proofs.WorldStreamLemmas
  Proofs.WorldWireLemmas Proofs.WorldBasics.
Import ListNotations.
Open Scope N_scope.

Lemma rep_recv_msg j ch os w m rest wire env data :
  w_type w = REP -> single j ch os w -> side j wire w ->
  expected ch false = os ++ OI m :: rest -> rep_split m = Ok (env, data) ->
  exists w', World.step w ORecv = ([BRecv None data], w') /\ w_type w' = REP /\
             w_cur w' = Some j /\ w_env w' = Some env /\ side j wire w'.
Proof.
  intros T Hs Hsd He Hsp.
  assert (has_fq (w_type w) = true) as Ht by (rewrite T; reflexivity).
  destruct (recv_next j ch os w _ Ht Hs He) as (w1 & F & R & _).
  rewrite R, T. unfold hand_out. rewrite Hsp. eexists. split; [reflexivity|].
  split; [rewrite <- T; exact (proj1 F)|]. split; [reflexivity|]. split; [reflexivity|].
  exact (side_frame _ _ _ _ F Hsd).
Qed.

Lemma rep_send j wire w env r :
  w_type w = REP -> w_cur w = Some j -> w_env w = Some env -> side j wire w ->
  exists w', World.step w (OSend r) = ([BSendOk], w') /\ w_type w' = REP /\ w_cur w' = None /\
             side j (wire ++ encode_frames (env ++ r)) w'.
Proof.
  intros T Hc He Hsd.
  rewrite (rep_reply_goes_to_requester w j r T Hc (proj1 Hsd)), He. cbn [rep_wrap].
  eexists. split; [reflexivity|].
  split; [rewrite <- T; exact (proj1 (write_msg_tables w j (env ++ r)))|]. split; [reflexivity|].
  exact (side_write j wire w (env ++ r) Hsd).
Qed.

(** k is the one entry of the round-robin queue; [cur]: who owes a reply; [wire]: what has been written to k since the wire was last
    looked at; the last three clauses are [rx c ch os] spelled out *)
Definition reqst (k : N) (cur : option N) (wire : bytes) (ch : list bytes) (os : list out) (w : world) : Prop :=
  w_type w = REQ /\ w_rr w = [k] /\ w_cur w = cur /\ w_reg w = [] /\ memN k (w_peers w) = true /\
  exists c, get_conn k (w_conns w) = Some c /\ c_wire c = wire /\ okc c /\ c_eof c = false /\
    feed_all reader_pg ch = (os ++ fst (eager c), snd (eager c)).

Lemma req_attach k : reqst k None [] [] [] (do_attach (world0 REQ) k None).
Proof.
  split; [reflexivity|]. split; [reflexivity|]. split; [reflexivity|]. split; [reflexivity|]. split.
  - rewrite (proj1 (proj2 (do_attach_tables _ _ _))), memN_snoc, N.eqb_refl. apply orb_true_r.
  - exists (new_conn k None). split; [rewrite do_attach_get, N.eqb_refl; reflexivity|].
    split; [reflexivity|apply rx_new].
Qed.

Lemma req_send k wire ch os w m : reqst k None wire ch os w ->
  exists w', World.step w (OSend m) = ([BSendOk], w') /\
             reqst k (Some k) (wire ++ encode_frames ([] :: m)) ch os w'.
Proof.
  intros (T & Hrr & Hc & Hreg & Hp & c & Hg & Hw & Hrx).
  rewrite step_send_rr by (right; right; split; assumption).
  rewrite (send_rr_head _ w m k [] Hrr Hp), T. cbv zeta.
  eexists. split; [reflexivity|].
  destruct (write_msg_tables (with_rr w ([] ++ [k])) k (req_wrap m)) as (T' & P' & R' & _ & _ & _ & G' & _).
  unfold reqst. wsimp. rewrite T', P', R', G', write_msg_get, N.eqb_refl. wsimp. rewrite Hg.
  split; [exact T|]. split; [reflexivity|]. split; [reflexivity|]. split; [exact Hreg|]. split; [exact Hp|].
  eexists. split; [reflexivity|]. split; [|exact Hrx].
  cbn [c_with_wire c_wire]. rewrite Hw. reflexivity.
Qed.

Lemma req_wire k cur wire ch os w : reqst k cur wire ch os w ->
  exists w', World.step w (OWire k) = ([BWire k wire], w') /\ reqst k cur [] ch os w'.
Proof.
  intros (T & Hrr & Hc & Hreg & Hp & c & Hg & Hw & Hrx).
  cbn [World.step]. rewrite Hg, Hw. eexists. split; [reflexivity|]. unfold reqst. wsimp.
  split; [exact T|]. split; [exact Hrr|]. split; [exact Hc|]. split; [exact Hreg|]. split; [exact Hp|].
  exists (c_with_wire c []). split; [apply (get_upd_conn w k c); [exact Hg|reflexivity]|].
  split; [reflexivity|exact Hrx].
Qed.

Lemma req_feed k cur wire ch os w b : reqst k cur wire ch os w ->
  reqst k cur wire (ch ++ nonnil [b]) os (do_feed w k b).
Proof.
  intros (T & Hrr & Hc & Hreg & Hp & c & Hg & Hw & Hrx).
  destruct (do_feed_tables w k b) as (T' & P' & R' & _ & _ & U' & _).
  split; [rewrite T'; exact T|]. split; [rewrite R'; exact Hrr|]. split; [rewrite U'; exact Hc|].
  split; [|split; [rewrite P'; exact Hp|]].
  - (* nothing is parked in an empty registry, so no waker fires *)
    unfold do_feed. rewrite Hg. destruct (is_nil b || c_eof c); [exact Hreg|].
    unfold fq_wake. wsimp. rewrite Hreg. exact Hreg.
  - exists (feed_conn b c). split; [rewrite do_feed_get, N.eqb_refl, Hg; reflexivity|].
    split; [rewrite (proj1 (proj2 (feed_conn_keeps b c))); exact Hw|apply rx_feed; exact Hrx].
Qed.

Lemma req_run_feeds k cur wire os chunks ch w ops : reqst k cur wire ch os w ->
  exists w', World.run w (map (OFeed k) chunks ++ ops) = World.run w' ops /\
             reqst k cur wire (ch ++ nonnil chunks) os w'.
Proof. apply (feeds_inv k (fun ch w => reqst k cur wire ch os w)). intros ch0 w0 b. apply req_feed. Qed.

Lemma req_recv_msg k wire ch os w r rest : r <> [] -> reqst k (Some k) wire ch os w ->
  expected ch false = os ++ OI ([] :: r) :: rest ->
  exists w', World.step w ORecv = ([BRecv None r], w') /\ reqst k None wire ch (os ++ [OI ([] :: r)]) w'.
Proof.
  intros Hr (T & Hrr & Hc & Hreg & Hp & c & Hg & Hw & Hrx) Hex.
  destruct (rx_poll c ch os _ Hrx Hex) as (c' & HP & Hrx').
  destruct (poll_keeps _ _ _ _ HP) as ((I & _ & _ & W & _) & _).
  rewrite (step_recv_req w T), (recv_req_reply w k c c' r Hc Hp Hg HP Hr).
  eexists. split; [reflexivity|]. unfold reqst. wsimp.
  split; [exact T|]. split; [exact Hrr|]. split; [reflexivity|]. split; [exact Hreg|]. split; [exact Hp|].
  exists c'. split; [exact (get_upd_conn w k c c' Hg I)|].
  split; [congruence|exact Hrx'].
Qed.

Lemma req_recv_none k wire ch os w : reqst k None wire ch os w ->
  World.step w ORecv = ([BRecvErr EOther], w).
Proof. intros (T & _ & Hc & _). exact (req_recv_out_of_turn w T Hc). Qed.
