(** Big-endian fields, list slicing and [bytes_eqb]; from [count_occ_snoc] on, the list facts that
    several proof files share. *)
From ZV Require Import Base.Bytes.

Lemma lenN_app {A} (a b : list A) : lenN (a ++ b) = lenN a + lenN b.
Proof. unfold lenN. rewrite app_length. lia. Qed.

Lemma lenN_nil {A} : lenN (@nil A) = 0.
Proof. reflexivity. Qed.

Lemma lenN_cons {A} (x : A) l : lenN (x :: l) = 1 + lenN l.
Proof. unfold lenN. cbn [length]. lia. Qed.

Lemma firstn_app_le {A} n (a b : list A) : (n <= length a)%nat -> firstn n (a ++ b) = firstn n a.
Proof.
  intros H. rewrite firstn_app. replace (n - length a)%nat with 0%nat by lia.
  rewrite firstn_O. apply app_nil_r.
Qed.

Lemma skipn_app_le {A} n (a b : list A) : (n <= length a)%nat -> skipn n (a ++ b) = skipn n a ++ b.
Proof.
  intros H. rewrite skipn_app. replace (n - length a)%nat with 0%nat by lia.
  rewrite skipn_O. reflexivity.
Qed.

Lemma firstn_app_exact {A} (a b : list A) n : n = length a -> firstn n (a ++ b) = a.
Proof. intros ->. rewrite firstn_app_le by lia. apply firstn_all. Qed.

Lemma skipn_app_exact {A} (a b : list A) n : n = length a -> skipn n (a ++ b) = b.
Proof. intros ->. rewrite skipn_app_le, skipn_all by lia. reflexivity. Qed.

Lemma firstnN_app_exact {A} (a b : list A) : firstnN (lenN a) (a ++ b) = a.
Proof. apply firstn_app_exact, Nnat.Nat2N.id. Qed.

Lemma skipnN_app_exact {A} (a b : list A) : skipnN (lenN a) (a ++ b) = b.
Proof. apply skipn_app_exact, Nnat.Nat2N.id. Qed.

Lemma be_length w n : length (be w n) = w.
Proof. revert n; induction w as [|w IH]; intros n; cbn [be]; [reflexivity|]. rewrite app_length, IH. cbn. lia. Qed.

Lemma lenN_be w n : lenN (be w n) = N.of_nat w.
Proof. unfold lenN. rewrite be_length. reflexivity. Qed.

Lemma of_be_acc_app acc a b : of_be_acc acc (a ++ b) = of_be_acc (of_be_acc acc a) b.
Proof. revert acc; induction a as [|x a IH]; intros acc; cbn; [reflexivity|apply IH]. Qed.

Lemma of_be_snoc l b : of_be (l ++ [b]) = of_be l * 256 + b.
Proof. unfold of_be. rewrite of_be_acc_app. reflexivity. Qed.

Lemma of_be_be w n : n < 256 ^ N.of_nat w -> of_be (be w n) = n.
Proof.
  revert n; induction w as [|w IH]; intros n H.
  - cbn in *. unfold of_be. cbn. lia.
  - cbn [be]. rewrite of_be_snoc. rewrite IH.
    + pose proof (N.div_mod n 256). lia.
    + rewrite Nnat.Nat2N.inj_succ, N.pow_succ_r' in H.
      apply N.div_lt_upper_bound; lia.
Qed.

Lemma lenN_app_ltb {A} (a b : list A) : (lenN (a ++ b) <? lenN a) = false.
Proof. rewrite lenN_app. apply N.ltb_ge. lia. Qed.

Lemma sized_field w (body rest : bytes) : lenN body < 256 ^ N.of_nat w ->
  let s := be w (lenN body) ++ body ++ rest in
  (lenN s <? N.of_nat w) = false /\ (lenN (skipn w s) <? of_be (firstn w s)) = false /\
  firstnN (of_be (firstn w s)) (skipn w s) = body /\ skipnN (of_be (firstn w s)) (skipn w s) = rest.
Proof.
  intros H s. subst s.
  rewrite (firstn_app_exact (be w (lenN body))), (skipn_app_exact (be w (lenN body))) by (rewrite be_length; reflexivity).
  rewrite of_be_be by assumption. rewrite firstnN_app_exact, skipnN_app_exact, lenN_app_ltb, lenN_app, lenN_be.
  repeat split. apply N.ltb_ge. lia.
Qed.

Lemma be_bytes_ok w n : bytes_ok (be w n) = true.
Proof.
  revert n; induction w as [|w IH]; intros n; cbn [be]; [reflexivity|].
  unfold bytes_ok in *. rewrite forallb_app, IH. cbn. unfold byte_ok.
  pose proof (N.mod_lt n 256). destruct (N.ltb_spec (n mod 256) 256); [reflexivity|lia].
Qed.

Lemma be_1 n : n < 256 -> be 1 n = [n].
Proof. intros H. cbn. rewrite N.mod_small by lia. reflexivity. Qed.

Lemma bytes_eqb_refl a : bytes_eqb a a = true.
Proof. induction a as [|x a IH]; cbn; [reflexivity|]. rewrite N.eqb_refl, IH. reflexivity. Qed.

Lemma bytes_eqb_eq a b : bytes_eqb a b = true <-> a = b.
Proof.
  split; [|intros ->; apply bytes_eqb_refl].
  revert b; induction a as [|x a IH]; intros [|y b]; cbn; intros H; try discriminate; [reflexivity|].
  apply andb_true_iff in H as [H1 H2]. apply N.eqb_eq in H1. f_equal; auto.
Qed.

Lemma bytes_eqb_spec a b : reflect (a = b) (bytes_eqb a b).
Proof. apply iff_reflect. symmetry. apply bytes_eqb_eq. Qed.

Lemma count_occ_snoc (dec : forall a b : bytes, {a = b} + {a <> b}) l x t :
  count_occ dec (l ++ [x]) t = if bytes_eqb x t then S (count_occ dec l t) else count_occ dec l t.
Proof.
  rewrite count_occ_app. cbn [count_occ].
  destruct (dec x t), (bytes_eqb_spec x t); (lia || contradiction).
Qed.

Lemma existsb_bytes_In t l : existsb (bytes_eqb t) l = true <-> In t l.
Proof.
  rewrite existsb_exists. split.
  - intros (x & Hin & E). apply bytes_eqb_eq in E. subst x. exact Hin.
  - intros H. exists t. split; [exact H|apply bytes_eqb_refl].
Qed.

Lemma existsb_bytes_not_In t l : existsb (bytes_eqb t) l = false <-> ~ In t l.
Proof. rewrite <- existsb_bytes_In. destruct (existsb (bytes_eqb t) l); split; congruence. Qed.

Lemma NoDup_snoc {A} (l : list A) (x : A) : NoDup l -> ~ In x l -> NoDup (l ++ [x]).
Proof. intros Hl Hx. apply (NoDup_Add (Add_app x l [])). rewrite app_nil_r. split; assumption. Qed.

Lemma lenN_lt_length {A} (l : list A) (n : N) : (lenN l <? n) = false -> (N.to_nat n <= length l)%nat.
Proof. unfold lenN. intros H. destruct (N.ltb_spec (N.of_nat (length l)) n); [discriminate|lia]. Qed.

Lemma fold_left_inv {A B} (f : A -> B -> A) (I : A -> Prop) l :
  (forall a b, In b l -> I a -> I (f a b)) -> forall a, I a -> I (fold_left f l a).
Proof.
  induction l as [|b l IH]; intros H a Ha; [exact Ha|].
  cbn [fold_left]. apply IH.
  - intros a' b' Hb'. apply H. right. exact Hb'.
  - apply H; [left; reflexivity|exact Ha].
Qed.

Lemma existsb_eqb_filter (p : N -> bool) j l :
  existsb (N.eqb j) (filter p l) = p j && existsb (N.eqb j) l.
Proof.
  induction l as [|x l IH]; cbn [filter existsb]; [symmetry; apply andb_false_r|].
  destruct (p x) eqn:Hp; cbn [existsb]; rewrite IH.
  - destruct (N.eqb_spec j x) as [->|E]; [rewrite Hp|]; reflexivity.
  - destruct (N.eqb_spec j x) as [->|E]; [rewrite Hp|]; reflexivity.
Qed.

Lemma NoDup_app_tail {A} (l l' : list A) : NoDup (l ++ l') -> NoDup l'.
Proof.
  induction l as [|a t IH]; cbn [app]; [auto|]. intros H. apply NoDup_cons_iff in H. tauto.
Qed.

Lemma filter_all {A} (f : A -> bool) l : (forall x, In x l -> f x = true) -> filter f l = l.
Proof.
  induction l as [|a t IH]; cbn [filter]; intros H; [reflexivity|].
  rewrite (H a (or_introl eq_refl)), IH; [reflexivity|]. intros x Hx. apply H. right. exact Hx.
Qed.
