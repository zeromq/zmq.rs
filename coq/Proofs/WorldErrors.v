(** C16 at the level of the whole socket model: a failing connection is reported once, forgotten and released,
    and never disturbs the others. *)
From Coq Require Import List Arith NArith Lia Bool.
From ZV Require Import Base.Bytes Base.Res Model.Codec Model.World
  Proofs.WorldStreamDefs Proofs.WorldStreamLemmas Proofs.WorldStream.
From ZV Require Import Proofs.WorldErrorsLemmas.
Import ListNotations.
Open Scope N_scope.

(** convertible with [nonitem] of Proofs/WorldErrorsLemmas.v, in whose terms the lemmas are stated *)
Definition is_err (o : out) : bool := match o with OItem _ => false | _ => true end.

Theorem expected_error_is_last : forall chunks closed pre o post,
  expected chunks closed = pre ++ o :: post -> is_err o = true -> post = [].
Proof.
  intros chunks closed pre o post H Ho.
  exact (proj1 (ws_split pre _ o post (expected_shape chunks closed) H Ho)).
Qed.

Theorem world_error_once : forall t cs es k pre o post,
  has_fq t = true -> In k cs ->
  outs_of k (fst (wrun (attached t cs) es)) = pre ++ o :: post -> is_err o = true ->
  post = [] /\ forallb (fun x => negb (is_err x)) pre = true.
Proof.
  intros t cs es k pre o post Ht Hk H Ho.
  destruct (world_stream_prefix t cs es k Ht Hk) as [rest Hrest].
  assert (ws (outs_of k (fst (wrun (attached t cs) es))) = true) as W.
  { apply (ws_prefix _ rest). rewrite <- Hrest. apply expected_shape. }
  exact (ws_split pre _ o post W H Ho).
Qed.

Theorem world_error_forgets : forall t cs es k rs w,
  has_fq t = true -> In k cs ->
  wrun (attached t cs) es = (rs, w) -> existsb is_err (outs_of k rs) = true ->
  memN k (w_peers w) = false /\ memN k (w_streams w) = false /\
  (forall c, get_conn k (w_conns w) = Some c -> c_rd c = false /\ c_wr c = false).
Proof.
  intros t cs es k rs w Ht Hk HR Herr.
  destruct (wrun_book t cs k Ht Hk es rs w HR) as [[B (c & G & R & W)] P].
  change (existsb nonitem (outs_of k rs) = true) in Herr. rewrite Herr in P. cbn [negb] in P.
  destruct (memN k (w_streams w)); [rewrite (B eq_refl) in P; discriminate P|].
  split; [exact P|split; [reflexivity|]].
  intros c0 G0. rewrite G in G0. injection G0 as <-. split; congruence.
Qed.

Theorem world_healthy_kept : forall t cs es k rs w,
  has_fq t = true -> In k cs ->
  wrun (attached t cs) es = (rs, w) -> existsb is_err (outs_of k rs) = false -> closed_of k es = false ->
  memN k (w_peers w) = true /\ memN k (w_streams w) = true /\
  (exists c, get_conn k (w_conns w) = Some c /\ c_rd c = true /\ c_wr c = true).
Proof.
  intros t cs es k rs w Ht Hk HR Herr Hcl.
  destruct (wrun_book t cs k Ht Hk es rs w HR) as [[_ (c & G & R & W)] P].
  change (existsb nonitem (outs_of k rs) = false) in Herr. rewrite Herr in P. cbn [negb] in P.
  assert (memN k (w_streams w) = true) as M.
  { (* k's stream has not ended: that takes an error or a close *)
    destruct (wrun_Ginv t cs Ht es rs w HR) as [_ K].
    destruct (K k Hk) as [(_ & _ & _ & _ & _ & M & _)|[_ [[Hs Ho]|[Hc _]]]]; [exact M| |congruence].
    destruct (feed_all reader_pg (chunks_of k es)) as [os r] eqn:E. cbn [fst snd] in *.
    rewrite <- Ho, (proj2 (feed_all_shape _ reader_pg _ _ eq_refl E)) in Herr. congruence. }
  split; [exact P|split; [exact M|]].
  exists c. split; [exact G|split; congruence].
Qed.

(** non-vacuity: connection 0 sends an incomplete frame and closes; connection 1 is fine *)
Definition we_es := [WFeed 0 [0;5;1;2]; WEof 0; WFeed 1 (encode_frames [[9]]); WNext; WNext; WNext].
Example we_sample :
  outs_of 0 (fst (wrun (attached PULL [0;1]) we_es)) = [OErr EIoEof] /\
  outs_of 1 (fst (wrun (attached PULL [0;1]) we_es)) = [OItem (IMessage [[9]])] /\
  memN 0 (w_peers (snd (wrun (attached PULL [0;1]) we_es))) = false /\
  memN 1 (w_peers (snd (wrun (attached PULL [0;1]) we_es))) = true.
Proof. vm_compute. repeat split; reflexivity. Qed.

(** the finding clean-eof-keeps-write-half of KNOWN_FINDINGS.txt, as the model shows it: a peer that closes while nothing is
    buffered ends its stream silently - the read half goes, the peer-table entry and the write half stay *)
Definition we_clean := [WFeed 0 (encode_frames [[9]]); WEof 0; WNext; WNext].
Example world_clean_close_keeps_peer :
  outs_of 0 (fst (wrun (attached PULL [0]) we_clean)) = [OItem (IMessage [[9]])] /\
  memN 0 (w_peers (snd (wrun (attached PULL [0]) we_clean))) = true /\
  memN 0 (w_streams (snd (wrun (attached PULL [0]) we_clean))) = false /\
  map (fun c => (c_rd c, c_wr c)) (w_conns (snd (wrun (attached PULL [0]) we_clean))) = [(false, true)].
Proof. vm_compute. repeat split; reflexivity. Qed.

Print Assumptions expected_error_is_last.
Print Assumptions world_error_once.
Print Assumptions world_error_forgets.
Print Assumptions world_healthy_kept.
