(** On their common domain - connections that accept every write - the scripted-connection models of the sending paths
    (Model/RrSend.v, Model/DirSend.v) and the socket model (Model/World.v) do the same thing. *)
From ZV Require Import Model.Codec Model.RrSend Model.DirSend Proofs.RrSendProofs Proofs.DirSendProofs Proofs.WorldBasics.
Local Open Scope N_scope.

Definition rr_agrees (w : World.world) (st : rstate) : Prop :=
  World.w_rr w = r_rr st /\
  (forall k, World.memN k (World.w_peers w) = true <-> pget k (r_peers st) <> None) /\
  (forall k, World.memN k (World.w_peers w) = true -> exists c, World.get_conn k (World.w_conns w) = Some c) /\
  all_accepting st.

Definition wire_w (k : N) (w : World.world) : bytes :=
  match World.get_conn k (World.w_conns w) with Some c => World.c_wire c | None => [] end.

Lemma write_ok w st k m keep drop :
  rr_agrees w st -> World.memN k (World.w_peers w) = true -> lenN (encode_frames m) < 2 ^ 63 ->
  exists p s, pget k (r_peers st) = Some p /\ sink_send (p_sink p) (encode_frames m) = (FlOk, s) /\
    forall w', World.w_peers w' = World.w_peers w ->
      (forall j, World.get_conn j (World.w_conns w') = World.get_conn j (World.w_conns (World.write_msg w k m))) ->
      World.w_rr w' = keep ->
      let st' := wrote st k FlOk s keep drop in
      rr_agrees w' st' /\
      wire_w k w' = wire_w k w ++ encode_frames m /\ wire_of k st' = wire_of k st ++ encode_frames m /\
      (forall j, j <> k -> wire_w j w' = wire_w j w /\ wire_of j st' = wire_of j st).
Proof.
  intros (_ & Hp & Hc & Ha) Hk Hl.
  destruct (pget k (r_peers st)) as [p|] eqn:Ep; [|apply Hp in Hk; congruence].
  destruct (Ha p (pget_In _ _ _ Ep)) as [Ht Hb].
  destruct (sink_send_accepting _ _ Ht Hb Hl) as (s & Hs & Hb' & Ht' & _).
  exists p, s. split; [reflexivity|]. split; [exact Hs|].
  intros w' Hpe Hco Hrr st'.
  assert (Hw : forall j, wire_w j w' = wire_w j w ++ if j =? k then encode_frames m else []).
  { intros j. unfold wire_w. rewrite Hco, write_msg_get. destruct (N.eqb_spec j k) as [->|_]; [|rewrite app_nil_r; reflexivity].
    destruct (Hc k Hk) as [c ->]. reflexivity. }
  split; [|split; [|split]].
  - split; [exact Hrr|]. subst st'. cbn [wrote keeps r_peers]. split; [|split].
    + intros j. rewrite Hpe, pget_pset. destruct (N.eqb_spec j k) as [->|_]; [|apply Hp].
      rewrite Ep. split; [discriminate|intros _; exact Hk].
    + intros j Hj. rewrite Hpe in Hj. rewrite Hco, write_msg_get.
      destruct (Hc j Hj) as [c Hgc]. destruct (N.eqb_spec j k) as [<-|_]; rewrite Hgc; eexists; reflexivity.
    + intros q Hq. apply In_pset in Hq as [->|Hq]; [cbn [p_sink]; auto|apply Ha; exact Hq].
  - rewrite Hw, N.eqb_refl. reflexivity.
  - apply (wrote_ok_whole st k p _ s keep drop Ep Hs Hb).
  - intros j Hjk. split.
    + rewrite Hw, (proj2 (N.eqb_neq j k) Hjk). apply app_nil_r.
    + apply wire_of_ext; apply wrote_frame; exact Hjk.
Qed.

Lemma dead_both w st k : rr_agrees w st -> World.memN k (World.w_peers w) = false -> pget k (r_peers st) = None.
Proof.
  intros (_ & Hp & _) Hk. destruct (pget k (r_peers st)) eqn:E; [|reflexivity].
  assert (World.memN k (World.w_peers w) = true) by (apply Hp; rewrite E; discriminate). congruence.
Qed.

(** the two loops skip the same stale ids and do the same write; REQ differs from the others in that the message is
    wrapped and the server remembered *)
Lemma rr_loop : forall rr w st m m' b w' r st',
  World.w_rr w = rr -> rr_agrees w st -> m' = wrap (World.w_type w) m ->
  lenN (encode_frames m') < 2 ^ 63 ->
  World.send_rr (S (length rr)) w m = (b, w') -> send st m' = (r, st') ->
  rr_agrees w' st' /\ World.w_type w' = World.w_type w /\
  match r with
  | ROk k => b = World.BSendOk /\ (World.w_type w = REQ -> World.w_cur w' = Some k) /\
             wire_w k w' = wire_w k w ++ encode_frames m' /\ wire_of k st' = wire_of k st ++ encode_frames m' /\
             (forall j, j <> k -> wire_w j w' = wire_w j w /\ wire_of j st' = wire_of j st)
  | RNoPeer => b = World.BSendErr EReturnToSender (Some m) /\ World.w_cur w' = World.w_cur w /\
               (forall j, wire_w j w' = wire_w j w /\ wire_of j st' = wire_of j st)
  | _ => False
  end.
Proof.
  induction rr as [|k rest IH]; intros w st m m' b w' r st' Hw Ht Hm Hl H1 H2;
    assert (Hs : r_rr st = _) by (rewrite <- (proj1 Ht); exact Hw).
  - cbn [World.send_rr] in H1. rewrite Hw in H1. rewrite send_nil in H2 by exact Hs.
    inversion H1; inversion H2; subst b w' r st'. split; [exact Ht|].
    split; [reflexivity|]. split; [reflexivity|]. split; [reflexivity|]. intros j; split; reflexivity.
  - destruct (World.memN k (World.w_peers w)) eqn:Hk.
    + destruct (send_rr_served (length (k :: rest)) w m k rest Hw Hk) as (w1 & E1 & Wty & Wpeers & Wrr & Wcur & Wconns).
      rewrite E1 in H1. inversion H1; subst b w1. rewrite <- Hm in Wconns.
      destruct (write_ok w st k m' (rest ++ [k]) rest Ht Hk Hl) as (p & s & Ep & Hss & Hall).
      erewrite send_live in H2; [|exact Hs|exact Ep]. rewrite Hss in H2. inversion H2; subst r st'.
      destruct (Hall w' Wpeers) as (A & B & C & D); [intros j; rewrite Wconns, write_msg_get; reflexivity|exact Wrr|].
      split; [exact A|]. split; [exact Wty|]. split; [reflexivity|]. split; [intros T; rewrite Wcur, T; reflexivity|].
      split; [exact B|]. split; [exact C|exact D].
    + cbn [World.send_rr] in H1. rewrite Hw in H1. cbv zeta in H1. cbn [World.w_peers World.with_rr World.set_w] in H1.
      rewrite Hk in H1. erewrite send_dead in H2; [|exact Hs|exact (dead_both w st k Ht Hk)].
      exact (IH (World.with_rr w rest) {| r_peers := r_peers st; r_rr := rest; r_gone := r_gone st |} m m' b w' r st'
                eq_refl (conj eq_refl (proj2 Ht)) Hm Hl H1 H2).
Qed.

Theorem rr_refines_world : forall w st m,
  World.w_type w = PUSH \/ World.w_type w = DEALER -> rr_agrees w st -> lenN (encode_frames m) < 2 ^ 63 ->
  let '(b, w') := World.send_rr (S (length (World.w_rr w))) w m in
  let '(r, st') := RrSend.send st m in
  rr_agrees w' st' /\
  match r with
  | ROk k => b = World.BSendOk /\
             wire_w k w' = wire_w k w ++ encode_frames m /\ wire_of k st' = wire_of k st ++ encode_frames m /\
             (forall j, j <> k -> wire_w j w' = wire_w j w /\ wire_of j st' = wire_of j st)
  | RNoPeer => b = World.BSendErr EReturnToSender (Some m) /\
               (forall j, wire_w j w' = wire_w j w /\ wire_of j st' = wire_of j st)
  | _ => False
  end.
Proof.
  intros w st m Hty Hag Hl.
  destruct (World.send_rr (S (length (World.w_rr w))) w m) as [b w'] eqn:E1.
  destruct (RrSend.send st m) as [r st'] eqn:E2.
  destruct (rr_loop (World.w_rr w) w st m m b w' r st' eq_refl Hag) as (A & _ & B); [destruct Hty as [E|E]; rewrite E; reflexivity|exact Hl|exact E1|exact E2|].
  split; [exact A|]. destruct r as [k|k e| |k]; try exact B; destruct B as (B1 & _ & B2); exact (conj B1 B2).
Qed.

Theorem send_to_refines_world : forall w st k m,
  World.w_type w = ROUTER -> rr_agrees w st -> lenN (encode_frames m) < 2 ^ 63 ->
  let '(bs, w') := World.step w (World.OSendTo k m) in
  let '(r, st') := send_to st k m in
  rr_agrees w' st' /\
  match r with
  | ROk k' => k' = k /\ bs = [World.BSendOk] /\
              wire_w k w' = wire_w k w ++ encode_frames m /\ wire_of k st' = wire_of k st ++ encode_frames m /\
              (forall j, j <> k -> wire_w j w' = wire_w j w /\ wire_of j st' = wire_of j st)
  | RNoPeer => bs = [World.BSendErr EOther None] /\ w' = w /\ st' = st
  | _ => False
  end.
Proof.
  intros w st k m Hty Hag Hl. cbn [World.step]. rewrite Hty.
  destruct (World.memN k (World.w_peers w)) eqn:Hk.
  - destruct (write_ok w st k m (r_rr st) (r_rr st) Hag Hk Hl) as (p & s & Ep & Hss & Hall).
    rewrite (send_to_live _ _ _ _ Ep), Hss.
    destruct (Hall (World.write_msg w k m)) as (A & B & C & D);
      [apply write_msg_tables|reflexivity|transitivity (World.w_rr w); [apply write_msg_tables|apply Hag]|].
    split; [exact A|]. split; [reflexivity|]. split; [reflexivity|]. split; [exact B|]. split; [exact C|exact D].
  - rewrite send_to_unknown by exact (dead_both w st k Hag Hk). split; [exact Hag|]. repeat split; reflexivity.
Qed.

Definition req_agrees (w : World.world) (q : qstate) : Prop := rr_agrees w (q_base q) /\ World.w_cur w = q_cur q.

Theorem req_refines_world : forall w q m,
  World.w_type w = REQ -> req_agrees w q -> lenN (encode_frames (World.req_wrap m)) < 2 ^ 63 ->
  let '(bs, w') := World.step w (World.OSend m) in
  let '(r, q') := req_send q m in
  req_agrees w' q' /\
  match r with
  | QSent k => bs = [World.BSendOk] /\
               wire_w k w' = wire_w k w ++ encode_frames (World.req_wrap m) /\
               wire_of k (q_base q') = wire_of k (q_base q) ++ encode_frames (World.req_wrap m) /\
               (forall j, j <> k -> wire_w j w' = wire_w j w /\ wire_of j (q_base q') = wire_of j (q_base q))
  | QBusy | QNoPeer => bs = [World.BSendErr EReturnToSender (Some m)] /\
               (forall j, wire_w j w' = wire_w j w /\ wire_of j (q_base q') = wire_of j (q_base q))
  | _ => False
  end.
Proof.
  intros w q m Hty [Hag Hcur] Hl. cbn [World.step]. rewrite Hty, Hcur.
  destruct (req_send q m) as [r q'] eqn:E. apply req_send_inv in E as [(Hc & -> & ->)|(Hc & r0 & st & Es & -> & ->)].
  - unfold req_agrees. destruct (q_cur q); [|congruence]. split; [split; assumption|]. split; [reflexivity|]. intros j; split; reflexivity.
  - rewrite Hc. destruct (World.send_rr (S (length (World.w_rr w))) w m) as [b w'] eqn:E1.
    destruct (rr_loop (World.w_rr w) w (q_base q) m (World.req_wrap m) b w' r0 st eq_refl Hag) as (A & _ & B); [rewrite Hty; reflexivity|exact Hl|exact E1|exact Es|].
    unfold req_agrees. cbn [q_base q_cur]. destruct r0; try contradiction; cbn [q_of requeue].
    + destruct B as (-> & Hc' & B). split; [split; [exact A|exact (Hc' Hty)]|]. split; [reflexivity|exact B].
    + destruct B as (-> & Hc' & B). split; [split; [exact A|congruence]|]. split; [reflexivity|exact B].
Qed.

Print Assumptions rr_refines_world.
Print Assumptions send_to_refines_world.
Print Assumptions req_refines_world.
