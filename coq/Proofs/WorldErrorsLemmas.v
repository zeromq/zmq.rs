(** The shape of a reader's output (items, then at most one non-item at the very end), and the bookkeeping
    of the socket model for one connection (peer table, stream registration, halves) along [wrun]. *)
From Coq Require Import List Arith NArith Lia Bool.
From ZV Require Import Base.Bytes Base.Res Model.Codec Model.World Proofs.Decoder
  Proofs.WorldStreamDefs Proofs.WorldBasics Proofs.WorldStreamLemmas.
Import ListNotations.
Open Scope N_scope.

Definition nonitem (o : out) : bool := match o with OItem _ => false | _ => true end.

(** well shaped: a non-item can only be the last element *)
Fixpoint ws (l : list out) : bool :=
  match l with
  | [] => true
  | o :: t => if nonitem o then is_nil t else ws t
  end.

Lemma ws_split : forall pre l o post,
  ws l = true -> l = pre ++ o :: post -> nonitem o = true ->
  post = [] /\ forallb (fun x => negb (nonitem x)) pre = true.
Proof.
  induction pre as [|x pre IH]; intros l o post Hw Hl Ho; subst l; cbn [app ws forallb] in *.
  - rewrite Ho in Hw. destruct post; [split; reflexivity|discriminate Hw].
  - destruct (nonitem x) eqn:Hx.
    + destruct pre; discriminate Hw.
    + cbn [negb andb]. exact (IH _ o post Hw eq_refl Ho).
Qed.

Lemma ws_prefix : forall a b, ws (a ++ b) = true -> ws a = true.
Proof.
  induction a as [|x a IH]; intros b H; cbn [app ws] in *; [reflexivity|].
  destruct (nonitem x).
  - destruct a; [reflexivity|discriminate H].
  - exact (IH b H).
Qed.

Lemma ws_app_clean : forall a b, existsb nonitem a = false -> ws (a ++ b) = ws b.
Proof.
  induction a as [|x a IH]; intros b H; cbn [app ws existsb] in *; [reflexivity|].
  apply orb_false_iff in H as [Hx Ha]. rewrite Hx. exact (IH b Ha).
Qed.

Lemma drain_shape : forall n d buf os d' b' s,
  drain n d buf = (os, d', b', s) -> ws os = true /\ existsb nonitem os = s.
Proof.
  induction n as [|n IH]; intros d buf os d' b' s H.
  - cbn [drain] in H. injection H as <- _ _ <-. split; reflexivity.
  - rewrite drain_S in H. destruct (dec1 d buf) as [[r d1] b1].
    destruct r as [|i|e|p|]; try (injection H as <- _ _ <-; split; reflexivity).
    destruct (drain n d1 b1) as [[[os1 d2] b2] s1] eqn:E. apply IH in E.
    injection H as <- _ _ <-. exact E.
Qed.

Lemma feed_shape r c os r' : rd_stop r = false -> feed r c = (os, r') ->
  ws os = true /\ existsb nonitem os = rd_stop r'.
Proof.
  intros Hs H. rewrite feed_unfold, Hs in H.
  destruct (drain _ (rd_dec r) (rd_buf r ++ c)) as [[[os1 d1] b1] s1] eqn:E.
  apply drain_shape in E. apply pair_equal_spec in H as [<- <-]. cbn [rd_stop]. exact E.
Qed.

Lemma feed_all_shape : forall l r os r', rd_stop r = false -> feed_all r l = (os, r') ->
  ws os = true /\ existsb nonitem os = rd_stop r'.
Proof.
  induction l as [|c l IH]; intros r os r' Hs H; cbn [feed_all] in H.
  - apply pair_equal_spec in H as [<- <-]. split; [reflexivity|symmetry; exact Hs].
  - destruct (feed r c) as [o1 r1] eqn:E1. destruct (feed_shape r c o1 r1 Hs E1) as [W1 X1].
    destruct (rd_stop r1) eqn:S1.
    + rewrite (feed_all_stopped l r1 S1) in H. apply pair_equal_spec in H as [<- <-].
      rewrite app_nil_r. split; [exact W1|]. rewrite X1. symmetry. exact S1.
    + destruct (feed_all r1 l) as [o2 r2] eqn:E2. destruct (IH r1 o2 r2 S1 E2) as [W2 X2].
      apply pair_equal_spec in H as [<- <-].
      split; [rewrite ws_app_clean; assumption|].
      rewrite existsb_app, X1. exact X2.
Qed.

Lemma feed_all_stopped_shape : forall l r os r', feed_all r l = (os, r') ->
  ws os = true /\ (rd_stop r' = true -> rd_stop r = true \/ existsb nonitem os = true).
Proof.
  intros l r os r' H. destruct (rd_stop r) eqn:Hs.
  - rewrite (feed_all_stopped l r Hs) in H. apply pair_equal_spec in H as [<- <-].
    split; [reflexivity|]. intros _. left. reflexivity.
  - destruct (feed_all_shape l r os r' Hs H) as [W X]. split; [exact W|]. intros S. right. congruence.
Qed.

Lemma expected_shape chunks closed : ws (expected chunks closed) = true.
Proof.
  unfold expected. destruct (feed_all reader_pg chunks) as [os r] eqn:E.
  destruct (feed_all_shape chunks reader_pg os r eq_refl E) as [W X].
  destruct closed; [|exact W].
  unfold feed_eof. destruct (rd_stop r) eqn:S.
  - rewrite app_nil_r. exact W.
  - rewrite ws_app_clean by exact X. destruct (rd_buf r); reflexivity.
Qed.

(** on a fair-queue socket the halves a connection holds say where it is registered: the read half as long
    as the queue polls its stream, the write half as long as it is a peer *)
Definition book (k : N) (w : world) : Prop :=
  (memN k (w_streams w) = true -> memN k (w_peers w) = true) /\
  exists c, get_conn k (w_conns w) = Some c /\
    c_rd c = memN k (w_streams w) /\ c_wr c = memN k (w_peers w).

(** [do_feed] and [do_eof] replace the connection named k' by its image under some f *)
Lemma book_arrival k w w' k' f :
  w_peers w' = w_peers w -> w_streams w' = w_streams w ->
  (forall j, get_conn j (w_conns w') =
             if j =? k' then option_map f (get_conn k' (w_conns w)) else get_conn j (w_conns w)) ->
  (forall c, c_rd (f c) = c_rd c /\ c_wr (f c) = c_wr c) ->
  book k w -> book k w'.
Proof.
  intros P S G F [B (c & Gc & R & W)].
  unfold book. rewrite P, S, (get_upd_some _ _ _ _ _ _ (G k) Gc). split; [exact B|]. eexists. split; [reflexivity|].
  destruct (k =? k'); [destruct (F c) as [-> ->]|]; split; assumption.
Qed.

Lemma book_next k fuel w r w' : fq_next fuel w = (r, w') -> book k w ->
  book k w' /\ memN k (w_peers w') = memN k (w_peers w).
Proof.
  intros H [B (c & G & R & W)].
  destruct (fq_next_frame _ _ _ _ H) as (_ & P & S & C).
  unfold book. rewrite P. split; [|reflexivity].
  destruct (C k c G) as (c' & G' & (_ & _ & _ & _ & _ & W') & D).
  split; [auto|]. exists c'. split; [exact G'|]. split; [|congruence].
  destruct D as [[-> ->]|(-> & _ & ->)]; [exact R|reflexivity].
Qed.

Lemma book_pd k w k' : has_fq (w_type w) = true -> book k w ->
  book k (peer_disconnected w k') /\
  memN k (w_peers (peer_disconnected w k')) = negb (k =? k') && memN k (w_peers w).
Proof.
  intros Ht [B (c & G & R & W)]. pose proof (pd_streams w k') as S. rewrite Ht in S.
  unfold book. rewrite pd_peers, S, (get_upd_some _ _ _ _ _ _ (pd_get w k' k) G), Ht, !memN_delN.
  split; [|reflexivity]. destruct (k =? k'); cbn [negb andb].
  - split; [discriminate|]. eexists. split; [reflexivity|]. split; reflexivity.
  - split; [exact B|]. exists c. auto.
Qed.

Lemma book_step k w : has_fq (w_type w) = true -> book k w -> forall e r w', wstep w e = (r, w') ->
  book k w' /\ memN k (w_peers w') = memN k (w_peers w) && negb (existsb nonitem (outs_of k [r])).
Proof.
  intros Ht HB. apply wstep_rule.
  - intros k' b. rewrite do_feed_peers, andb_true_r. split; [|reflexivity].
    apply (book_arrival k w _ k' (feed_conn b) (do_feed_peers w k' b) (do_feed_streams w k' b) (do_feed_get w k' b));
      [|exact HB].
    intros c. apply feed_conn_keeps.
  - intros k'. rewrite do_eof_peers, andb_true_r. split; [|reflexivity].
    apply (book_arrival k w _ k' _ (do_eof_peers w k') (do_eof_streams w k') (do_eof_get w k')); [|exact HB].
    intros c. split; reflexivity.
  - intros [k' o|] w0 HN;
      rewrite <- (fq_next_type _ _ _ _ HN) in Ht; apply (book_next k) in HN as [HB0 <-]; try exact HB.
    2:{ rewrite andb_true_r. split; [exact HB0|reflexivity]. }
    cbn [outs_of]. rewrite (N.eqb_sym k' k).
    destruct o as [i|e|s|]; try (destruct (book_pd k w0 k' Ht HB0) as [HB1 ->]; split; [exact HB1|]);
      destruct (k =? k'); cbn [existsb nonitem negb orb andb]; rewrite ?andb_true_r, ?andb_false_r; auto.
Qed.

Lemma wrun_book t cs k : has_fq t = true -> In k cs -> forall es rs w,
  wrun (attached t cs) es = (rs, w) ->
  book k w /\ memN k (w_peers w) = negb (existsb nonitem (outs_of k rs)).
Proof.
  intros Ht Hk es rs w HR.
  refine (proj2 (wrun_inv t (fun _ rs w => book k w /\ memN k (w_peers w) = negb (existsb nonitem (outs_of k rs)))
                   _ _ _ _ es rs w HR)).
  - apply (attached_inv t Ht cs).
  - destruct (attached_inv t Ht cs) as (_ & _ & _ & K). destruct (K k Hk) as (G & M & _ & P).
    split; [|exact P]. split; [intros _; exact P|]. exists (new_conn k None). rewrite M, P. auto.
  - clear es rs w HR. intros _ rs w e r w' _ T [HB HP] HS. rewrite <- T in Ht.
    destruct (book_step k w Ht HB e r w' HS) as [HB' ->].
    rewrite HP, outs_of_app, existsb_app, negb_orb. split; [exact HB'|reflexivity].
Qed.
