(** C09 + C05 at the API level of the socket model: a ROUTER with any number of connected peers, any
    interleaving of arrivals (any chunking), closes and recv calls - the messages recv returns labelled
    with connection k are exactly k's messages, in order, each once; nothing is lost. *)
From Coq Require Import List Arith NArith Lia Bool.
From ZV Require Import Base.Bytes Base.Res Model.Codec Model.World
  Proofs.WorldStreamDefs Proofs.WorldBasics Proofs.WorldStreamLemmas Proofs.WorldStream Proofs.RouterStreamLemmas.
Import ListNotations.
Open Scope N_scope.

Definition traffic_op (o : op) : Prop := match o with OFeed _ _ | OEof _ | ORecv => True | _ => False end.

Definition evs_of (ops : list op) : list wev :=
  flat_map (fun o => match o with OFeed k b => [WFeed k b] | OEof k => [WEof k] | _ => [] end) ops.

(** messages recv returned with the label of connection k (peers that announced no identity are labelled by connection) *)
Definition msgs_from (k : N) (obs : list obs) : list msg :=
  flat_map (fun b => match b with BRecv (Some k') m => if k' =? k then [m] else [] | _ => [] end) obs.

Definition messages_of (os : list out) : list msg :=
  flat_map (fun o => match o with OItem (IMessage m) => [m] | _ => [] end) os.

Lemma messages_of_app a b : messages_of (a ++ b) = messages_of a ++ messages_of b.
Proof. apply flat_map_app. Qed.

Lemma msgs_from_app k a b : msgs_from k (a ++ b) = msgs_from k a ++ msgs_from k b.
Proof. apply flat_map_app. Qed.

Lemma messages_skipped k : forall pre, Forall skipped pre -> messages_of (outs_of k pre) = [].
Proof.
  induction pre as [|r pre IH]; intros H; [reflexivity|].
  inversion H as [|? ? Hr Hp]; subst. specialize (IH Hp).
  destruct r as [[k' o]|]; cbn [outs_of]; [|exact IH].
  destruct (k' =? k); [|exact IH].
  change (messages_of (o :: outs_of k pre)) with (messages_of ([o] ++ outs_of k pre)).
  rewrite messages_of_app, IH, app_nil_r.
  destruct o as [[g|ps|m]| | |]; try reflexivity. cbn [skipped] in Hr. contradiction.
Qed.

Lemma evs_of_app a b : evs_of (a ++ b) = evs_of a ++ evs_of b.
Proof. apply flat_map_app. Qed.

Lemma arrival_step o e w : evs_of [o] = [e] ->
  World.step w o = ([], snd (wstep w e)) /\ fst (wstep w e) = None.
Proof. destruct o; intros H; try discriminate H; injection H as <-; split; reflexivity. Qed.

(** the whole run, op by op: it is a fair-queue level run in which every recv is replaced by its inner
    [WNext] events; those do not change what the peers wrote, and the messages recv returned labelled k
    are the messages among the items handed out for k *)
Lemma run_sim cs : forall ops, Forall traffic_op ops ->
  exists es rs,
    wrun (attached ROUTER cs) es = (rs, wfinal (attached ROUTER cs) ops) /\
    (forall k, chunks_of k es = chunks_of k (evs_of ops) /\ closed_of k es = closed_of k (evs_of ops)) /\
    (forall k, msgs_from k (World.run (attached ROUTER cs) ops) = messages_of (outs_of k rs)) /\
    (forall from m, In (BRecv from m) (World.run (attached ROUTER cs) ops) -> exists k, from = Some k /\ In k cs).
Proof.
  induction ops as [|o ops IH] using rev_ind; intros Hall.
  - exists [], []. repeat split. intros from m [].
  - apply Forall_app in Hall as [Hall Ho]. apply Forall_inv in Ho.
    destruct (IH Hall) as (es & rs & HR & Hc & Hm & Hl). clear IH.
    rewrite wfinal_app, run_app, evs_of_app. cbn [wfinal fold_left World.run].
    set (w := wfinal (attached ROUTER cs) ops) in *.
    destruct (evs_of [o]) as [|e [|]] eqn:Ev; [|destruct (arrival_step o e w Ev) as [E1 E2]|destruct o; discriminate Ev].
    + assert (o = ORecv) as -> by (destruct o; try contradiction; try discriminate Ev; reflexivity).
      destruct (step_recv_sim cs es rs w HR) as (b & w' & E1 & n & pre & lastr & E2 & E3 & E4).
      exists ((es ++ repeat WNext n) ++ [WNext]), ((rs ++ pre) ++ [lastr]).
      cbn [fst snd] in *. rewrite E1. cbn [snd app]. rewrite !app_nil_r.
      split; [exact E2|]. split; [|split].
      * intros k. destruct (next_irrelevant k (es ++ repeat WNext n)) as [-> ->].
        destruct (nexts_irrelevant k n es) as [-> ->]. exact (Hc k).
      * intros k. rewrite msgs_from_app, !outs_of_app, !messages_of_app, Hm, (messages_skipped k pre E3), app_nil_r.
        f_equal. destruct E4 as [[-> ->]|(k' & m & -> & -> & _)]; [reflexivity|].
        cbn [outs_of msgs_from flat_map]. destruct (k' =? k); reflexivity.
      * intros from m Hin. apply in_app_or in Hin as [Hin|[Hin|[]]]; [exact (Hl from m Hin)|].
        destruct E4 as [[-> _]|(k' & m' & -> & _ & Hk')]; [discriminate|].
        injection Hin as <- _. exists k'. split; [reflexivity|exact Hk'].
    + (* arrival or close *)
      exists (es ++ [e]), (rs ++ [None]). rewrite E1, wrun_snoc, HR. cbn [snd app]. rewrite !app_nil_r.
      destruct (wstep w e) as [r w']. cbn [fst snd] in *. subst r.
      split; [reflexivity|]. split; [|split; [|exact Hl]]; intros k.
      * rewrite !chunks_of_snoc, !closed_of_snoc. destruct (Hc k) as [-> ->]. split; reflexivity.
      * rewrite outs_of_app. cbn [outs_of]. rewrite app_nil_r. apply Hm.
Qed.

Theorem router_recv_in_order : forall cs ops k,
  In k cs -> Forall traffic_op ops ->
  is_prefix_of (msgs_from k (World.run (attached ROUTER cs) ops))
               (messages_of (expected (chunks_of k (evs_of ops)) (closed_of k (evs_of ops)))).
Proof.
  intros cs ops k Hk Hall.
  destruct (run_sim cs ops Hall) as (es & rs & HR & Hc & Hm & _).
  rewrite Hm. destruct (Hc k) as [<- <-].
  pose proof (world_stream_prefix ROUTER cs es k eq_refl Hk) as [rest P].
  rewrite HR in P. cbn [fst] in P. exists (messages_of rest). rewrite P. apply messages_of_app.
Qed.

Theorem router_recv_complete : forall cs ops k,
  In k cs -> Forall traffic_op ops ->
  last (World.run (attached ROUTER cs) (ops ++ [ORecv])) BRecvPending = BRecvPending ->
  msgs_from k (World.run (attached ROUTER cs) (ops ++ [ORecv])) =
  messages_of (expected (chunks_of k (evs_of ops)) (closed_of k (evs_of ops))).
Proof.
  intros cs ops k Hk Hall Hlast.
  destruct (run_sim cs ops Hall) as (es & rs & HR & Hc & Hm & _).
  destruct (step_recv_sim cs es rs _ HR) as (b & w' & E1 & n & pre & lastr & E2 & E3 & E4).
  rewrite run_app in Hlast |- *. cbn [World.run fst snd] in *. rewrite E1 in Hlast |- *. cbn [app] in Hlast |- *.
  rewrite last_last in Hlast. subst b.
  destruct E4 as [[_ ->]|(k' & m & E & _)]; [|discriminate].
  assert (last ((rs ++ pre) ++ [None]) None = None) as HL by apply last_last.
  pose proof (world_stream_complete ROUTER cs _ _ w' eq_refl E2 HL k Hk) as C.
  destruct (nexts_irrelevant k n es) as [Cc Ccl]. destruct (Hc k) as [Hc1 Hc2]. rewrite Cc, Ccl, Hc1, Hc2 in C.
  rewrite <- C, msgs_from_app, Hm, !outs_of_app, !messages_of_app, (messages_skipped k pre E3).
  cbn [outs_of msgs_from messages_of flat_map]. rewrite !app_nil_r. reflexivity.
Qed.

Definition rs_m1 := encode_frames [[1;2;3];[4]].
Definition rs_m2 := encode_frames [[9]].
Definition rs_ops := [ORecv; OFeed 0 (firstn 3 rs_m1); ORecv; OFeed 1 rs_m2; OFeed 0 (skipn 3 rs_m1 ++ rs_m2); ORecv; ORecv; ORecv; ORecv; OFeed 1 [5]; OEof 1; ORecv; OEof 0].
Example rs_sample :
  msgs_from 0 (World.run (attached ROUTER [0;1]) (rs_ops ++ [ORecv])) = [[[1;2;3];[4]]; [[9]]] /\
  msgs_from 1 (World.run (attached ROUTER [0;1]) (rs_ops ++ [ORecv])) = [[[9]]] /\
  last (World.run (attached ROUTER [0;1]) (rs_ops ++ [ORecv])) BRecvPending = BRecvPending.
Proof. vm_compute. repeat split; reflexivity. Qed.

Print Assumptions router_recv_in_order.
Print Assumptions router_recv_complete.
