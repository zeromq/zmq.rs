(** Lifecycle proofs about the socket-layer model (Model/World.v):
    C13 — a SUB socket's subscriptions reach every peer, late joiners included;
    C16 — a failed peer is isolated and forgotten. *)
From Coq Require Import List NArith Lia Bool Arith.
From ZV Require Import Base.Bytes Base.Res Spec.PrefixMultiset Model.Codec Model.World Proofs.BytesProofs Proofs.WorldBasics
  Proofs.PushDistribution Proofs.PubSubProofs.
Import ListNotations.
Open Scope N_scope.

Definition exec (w : world) (ops : list op) : world := fold_left (fun w o => snd (step w o)) ops w.
Definition sub_op (o : op) : Prop := match o with OAttach _ _ | OSub _ | OUnsub _ => True | _ => False end.
Fixpoint attach_names (ops : list op) : list N :=
  match ops with [] => [] | OAttach c _ :: t => c :: attach_names t | _ :: t => attach_names t end.
Definition subscribed (w : world) (t : bytes) : bool := existsb (bytes_eqb t) (w_subs w).

(** * C16: a failed peer is isolated and forgotten *)

Theorem disconnected_is_forgotten : forall w k,
  memN k (w_peers (peer_disconnected w k)) = false /\
  (has_fq (w_type w) = true -> memN k (w_streams (peer_disconnected w k)) = false) /\
  (forall c, get_conn k (w_conns w) = Some c -> has_fq (w_type w) = true \/ w_type w = REQ ->
     exists c', get_conn k (w_conns (peer_disconnected w k)) = Some c' /\ c_rd c' = false /\ c_wr c' = false) /\
  (forall j, j <> k -> get_conn j (w_conns (peer_disconnected w k)) = get_conn j (w_conns w) /\
                        memN j (w_peers (peer_disconnected w k)) = memN j (w_peers w) /\
                        memN j (w_streams (peer_disconnected w k)) = memN j (w_streams w)).
Proof.
  intros w k. rewrite pd_peers, pd_streams.
  split; [apply memN_delN_same|]. split; [intros ->; apply memN_delN_same|]. split.
  - intros c Hc Ht. rewrite pd_get, N.eqb_refl, Hc. eexists. split; [reflexivity|]. split; [|reflexivity].
    cbn [c_with_halves c_rd]. destruct Ht as [-> | ->]; [reflexivity|apply andb_false_r].
  - intros j Hj. rewrite pd_get, memN_delN_other by exact Hj.
    destruct (N.eqb_spec j k); [contradiction|]. split; [reflexivity|]. split; [reflexivity|].
    destruct (has_fq (w_type w)); [apply memN_delN_other; exact Hj|reflexivity].
Qed.

Theorem send_rr_never_writes_to_dead : forall fuel w m b w' k, memN k (w_peers w) = false ->
  send_rr fuel w m = (b, w') -> get_conn k (w_conns w') = get_conn k (w_conns w).
Proof.
  induction fuel as [|f IH]; intros w m b w' k Hk H; [injection H as _ <-; reflexivity|].
  destruct (w_rr w) as [|k' rest] eqn:Er; [cbn [send_rr] in H; rewrite Er in H; injection H as _ <-; reflexivity|].
  destruct (memN k' (w_peers w)) eqn:Hm.
  - destruct (send_rr_served f w m k' rest Er Hm) as (w1 & S & _ & _ & _ & _ & G).
    rewrite S in H. injection H as _ <-. rewrite G. destruct (N.eqb_spec k k') as [->|_]; [congruence|reflexivity].
  - cbn [send_rr] in H. rewrite Er in H. cbv zeta in H. wsimp in H. rewrite Hm in H.
    exact (IH (with_rr w rest) m b w' k Hk H).
Qed.

(** * C13: a SUB socket's subscriptions reach every peer *)

Lemma count_occ_NoDup : forall l t, NoDup l ->
  count_occ bytes_dec l t = if existsb (bytes_eqb t) l then 1%nat else 0%nat.
Proof.
  intros l t H. destruct (existsb (bytes_eqb t) l) eqn:E.
  - apply existsb_bytes_In in E. exact (proj1 (NoDup_count_occ' bytes_dec l) H t E).
  - apply existsb_bytes_not_In in E. apply count_occ_not_In. exact E.
Qed.

Lemma fold_subs : forall l acc, fold_left on_sub_msg (map (fun t => [1 :: t]) l) acc = acc ++ l.
Proof.
  induction l as [|t l IH]; intros acc; cbn [map fold_left]; [symmetry; apply app_nil_r|].
  rewrite IH. change (on_sub_msg acc [1 :: t]) with (acc ++ [t]). rewrite <- app_assoc. reflexivity.
Qed.

(** The invariant: what each peer has been sent is the encoding of a list of messages whose replay by the
    publisher's [on_sub_msg] is exactly the socket's set.  [P] is what the caller wants to know of each of these
    messages: nothing here; that it is well formed in Proofs/PubSubWireLemmas.v, where a publisher decodes them *)
Definition peer_told (P : msg -> Prop) (w : world) (c : N) : Prop :=
  exists cn msgs, get_conn c (w_conns w) = Some cn /\
    c_wire cn = concat (map encode_frames msgs) /\ Forall P msgs /\
    fold_left on_sub_msg msgs [] = w_subs w.

Definition sub_inv (P : msg -> Prop) (w : world) : Prop :=
  w_type w = SUB /\ NoDup (w_subs w) /\ NoDup (w_peers w) /\ Forall (fun t => P [1 :: t]) (w_subs w) /\
  forall c, memN c (w_peers w) = true -> peer_told P w c.

Definition sub_opP (P : msg -> Prop) (o : op) : Prop :=
  match o with OAttach _ _ => True | OSub t => P [1 :: t] | OUnsub t => P [0 :: t] | _ => False end.

Lemma sub_inv_world0 P : sub_inv P (world0 SUB).
Proof. split; [reflexivity|]. repeat (split; [constructor|]). intros c H. discriminate. Qed.

Lemma sub_inv_broadcast P w m subs' : sub_inv P w -> P m ->
  NoDup subs' -> Forall (fun t => P [1 :: t]) subs' -> on_sub_msg (w_subs w) m = subs' ->
  sub_inv P (fold_left (fun acc k => write_msg acc k m) (w_peers w) (with_subs w subs')).
Proof.
  intros (Ht & _ & Hnp & _ & Hall) Hpm Hns Hps Hm.
  destruct (write_fold_tables m (w_peers w) (with_subs w subs')) as (T & P' & _ & _ & _ & _ & _ & _ & _ & B).
  unfold sub_inv, peer_told. rewrite T, P', B. wsimp.
  split; [exact Ht|]. split; [exact Hns|]. split; [exact Hnp|]. split; [exact Hps|].
  intros c Hc. destruct (Hall c Hc) as (cn & msgs & Hg & Hwire & Hpms & Hsubs).
  rewrite write_fold_get by exact Hnp. wsimp. rewrite Hc, Hg.
  eexists _, (msgs ++ [m]). split; [reflexivity|]. split; [|split].
  - cbn [c_with_wire c_wire]. rewrite concat_map_snoc, Hwire. reflexivity.
  - apply Forall_app. split; [exact Hpms|]. constructor; [exact Hpm|constructor].
  - rewrite <- Hm, <- Hsubs. apply fold_left_app.
Qed.

(** No freshness of [c] is needed: [put_conn] replaces a connection of the same name by a new one
    and [delN c peers ++ [c]] keeps the table duplicate-free. *)
Lemma sub_inv_attach P w c ann : sub_inv P w -> sub_inv P (do_attach w c ann).
Proof.
  intros (Ht & Hns & Hnp & Hps & Hall).
  destruct (do_attach_tables w c ann) as (T & P' & _ & _ & _ & _ & _ & _ & _ & B).
  unfold sub_inv, peer_told. rewrite T, P', B.
  split; [exact Ht|]. split; [exact Hns|]. split; [|split; [exact Hps|]].
  { apply NoDup_snoc; [apply NoDup_filter; exact Hnp|]. rewrite <- memN_In, memN_delN_same. discriminate. }
  intros j Hj. rewrite do_attach_get, Ht. rewrite memN_snoc, memN_delN in Hj.
  destruct (N.eqb_spec j c) as [E|Hjc].
  - subst j. eexists _, (map (fun t => [1 :: t]) (w_subs w)). split; [reflexivity|]. split; [|split].
    + cbn [c_with_wire c_wire]. rewrite map_map. reflexivity.
    + apply Forall_map. exact Hps.
    + apply fold_subs.
  - rewrite orb_false_r in Hj. exact (Hall j Hj).
Qed.

Lemma step_sub_inv P w o : sub_inv P w -> sub_opP P o -> sub_inv P (snd (step w o)).
Proof.
  intros Hinv Ho. pose proof Hinv as (_ & Hns & _ & Hps & _).
  destruct o as [c ann|c b|c| |m|c m|t|t| |c|c]; cbn [sub_opP] in Ho; try contradiction; unfold step.
  - apply sub_inv_attach. exact Hinv.
  - destruct (existsb (bytes_eqb t) (w_subs w)) eqn:E; [exact Hinv|].
    apply (sub_inv_broadcast P w _ _ Hinv Ho); [| |reflexivity].
    + apply NoDup_snoc; [exact Hns|]. apply existsb_bytes_not_In. exact E.
    + apply Forall_app. split; [exact Hps|]. constructor; [exact Ho|constructor].
  - destruct (existsb (bytes_eqb t) (w_subs w)) eqn:E; [|exact Hinv].
    apply (sub_inv_broadcast P w _ _ Hinv Ho); [apply NoDup_filter; exact Hns| |apply (remove_first_filter t _ Hns)].
    apply (incl_Forall (incl_filter _ _) Hps).
Qed.

Theorem sub_inv_exec P : forall ops w, sub_inv P w -> Forall (sub_opP P) ops -> sub_inv P (exec w ops).
Proof.
  induction ops as [|o ops IH]; intros w Hinv Hops; cbn [exec fold_left]; [exact Hinv|].
  inversion Hops as [|? ? Ho Hops']; subst.
  apply (IH (snd (step w o))); [|exact Hops'].
  apply step_sub_inv; assumption.
Qed.

(** The publisher counts a topic once for every subscribe it was told and not yet an unsubscribe
    ([list_refines_multiset]); as the set has no duplicates that is 1 for its members. *)
Theorem sub_agreement_strong : forall ops w,
  w = exec (world0 SUB) ops -> Forall sub_op ops ->
  NoDup (w_subs w) /\ NoDup (w_peers w) /\
  forall c, memN c (w_peers w) = true ->
    exists cn msgs, get_conn c (w_conns w) = Some cn /\
      c_wire cn = concat (map encode_frames msgs) /\
      forall t, count msgs t = if subscribed w t then 1%nat else 0%nat.
Proof.
  intros ops w -> Hops.
  destruct (sub_inv_exec (fun _ => True) ops (world0 SUB) (sub_inv_world0 _)) as (_ & H1 & H2 & _ & H3).
  { revert Hops. apply Forall_impl. intros [] H; exact H. }
  split; [exact H1|]. split; [exact H2|]. intros c Hc.
  destruct (H3 c Hc) as (cn & msgs & G & W & _ & S). exists cn, msgs. split; [exact G|]. split; [exact W|].
  intros t. rewrite <- list_refines_multiset, S. apply count_occ_NoDup. exact H1.
Qed.

Theorem sub_agreement : forall ops w,
  w = exec (world0 SUB) ops -> Forall sub_op ops -> NoDup (attach_names ops) ->
  NoDup (w_subs w) /\ NoDup (w_peers w) /\
  forall c, memN c (w_peers w) = true ->
    exists cn msgs, get_conn c (w_conns w) = Some cn /\
      c_wire cn = concat (map encode_frames msgs) /\
      forall t, count msgs t = if subscribed w t then 1%nat else 0%nat.
Proof. intros ops w Hw Hops _. apply (sub_agreement_strong ops w Hw Hops). Qed.

Print Assumptions sub_agreement.
Print Assumptions disconnected_is_forgotten.
Print Assumptions send_rr_never_writes_to_dead.
Print Assumptions sub_inv_exec.
