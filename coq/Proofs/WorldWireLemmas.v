(** The socket model with ONE connection, over the wire: the declarative reading of a concatenation of encoded
    messages; the reader state of a connection that is polled directly ([rx], for REQ and PUB); a single connection
    behind the fair queue ([single]) with the end-to-end theorem [fq_wire] for all six fair-queue socket types at
    once: they differ only in what [recv_fq] does with a message taken from the queue, factored out as [hand_out]. *)
From Coq Require Import List Arith NArith Lia Bool.
From ZV Require Import Spec.Stream Model.Codec Model.World Proofs.CodecEnc Proofs.Decoder Proofs.CodecRoundtrip Proofs.WorldStreamDefs Proofs.WorldStreamLemmas Proofs.WorldBasics.
Import ListNotations.
Open Scope N_scope.

Definition OI (m : msg) : out := OItem (IMessage m).

(** empty chunks never reach a connection's queue *)
Definition nonnil (chunks : list bytes) : list bytes := filter (fun c => negb (is_nil c)) chunks.

Lemma nonnil_cons b l : nonnil (b :: l) = nonnil [b] ++ nonnil l.
Proof. unfold nonnil. cbn [filter]. destruct (negb (is_nil b)); reflexivity. Qed.

Lemma concat_nonnil chunks : concat (nonnil chunks) = concat chunks.
Proof.
  induction chunks as [|c cs IH]; [reflexivity|].
  unfold nonnil in *. cbn [filter]. destruct c as [|x c]; cbn [is_nil negb concat app]; rewrite IH; reflexivity.
Qed.

Lemma feeds_inv k (I : list bytes -> world -> Prop) :
  (forall ch w b, I ch w -> I (ch ++ nonnil [b]) (do_feed w k b)) ->
  forall chunks ch w ops, I ch w ->
  exists w', World.run w (map (OFeed k) chunks ++ ops) = World.run w' ops /\ I (ch ++ nonnil chunks) w'.
Proof.
  intros HI. induction chunks as [|b chunks IH]; intros ch w ops H.
  - exists w. cbn [map app nonnil filter]. rewrite app_nil_r. split; [reflexivity|exact H].
  - destruct (IH _ _ ops (HI ch w b H)) as (w' & R & H').
    exists w'. split; [exact R|]. rewrite nonnil_cons, app_assoc. exact H'.
Qed.

Lemma do_feed_frame w k b : fq_frame w (do_feed w k b).
Proof.
  unfold do_feed. destruct (get_conn k (w_conns w)) as [c|] eqn:G; [|apply fq_frame_refl].
  destruct (is_nil b || c_eof c); [apply fq_frame_refl|].
  destruct (fq_wake_tables (upd_conn w (c_with_in c (c_inq c ++ [b]) (c_eof c))) k) as (T & P & _ & _ & S & _).
  apply (fq_frame_upd w _ k c (c_with_in c (c_inq c ++ [b]) (c_eof c)) G); try assumption.
  - repeat split.
  - apply fq_wake_conns.
  - left. split; [reflexivity|exact S].
Qed.

Lemma spec_frames_encodes : forall ms fuel, Forall wf_msg ms ->
  (length (concat (map encode_frames ms)) < fuel)%nat ->
  spec_frames fuel None (concat (map encode_frames ms)) = map OI ms.
Proof.
  induction ms as [|m ms IH]; intros fuel Hall Hfuel.
  - cbn [map concat]. destruct fuel as [|fuel]; [cbn [map concat length] in Hfuel; lia|]. reflexivity.
  - inversion Hall as [|? ? [Hne Hfr] Hms]; subst.
    cbn [map concat] in *. rewrite app_length in Hfuel.
    pose proof (encode_frames_length m) as L.
    rewrite spec_frames_encode_app; [|assumption|assumption|lia].
    cbn [acc_app]. unfold OI at 1. f_equal. apply IH; [assumption|lia].
Qed.

Lemma settled_reader_pg : settled reader_pg.
Proof. apply settled_iff. split; [reflexivity|right; reflexivity]. Qed.

Lemma feed_pg_spec bs : fst (feed reader_pg bs) = spec_frames (S (length bs)) None bs.
Proof.
  unfold reader_pg. rewrite feed_fresh. change dec_post_greeting with (Hd None).
  apply spec_frames_decode; [lia|apply fuel_for_enough|lia].
Qed.

Lemma expected_open_concat chunks : expected chunks false = fst (feed reader_pg (concat chunks)).
Proof.
  unfold expected.
  destruct (feed_all_concat chunks reader_pg settled_reader_pg) as (r' & E & _).
  rewrite E. destruct (feed_all reader_pg chunks) as [os r]. reflexivity.
Qed.

(** the one codec fact behind every wire theorem: however the bytes are cut into chunks *)
Lemma expected_encodings ms chunks : Forall wf_msg ms ->
  concat chunks = concat (map encode_frames ms) -> expected chunks false = map OI ms.
Proof.
  intros Hall Hc. rewrite expected_open_concat, feed_pg_spec, Hc.
  apply spec_frames_encodes; [assumption|lia].
Qed.

Lemma encodings_inj a b : Forall wf_msg a -> Forall wf_msg b ->
  concat (map encode_frames a) = concat (map encode_frames b) -> a = b.
Proof.
  intros Ha Hb E.
  assert (map OI a = map OI b) as M.
  { rewrite <- (expected_encodings a [concat (map encode_frames a)] Ha) by (cbn [concat]; apply app_nil_r).
    rewrite <- (expected_encodings b [concat (map encode_frames a)] Hb) by (cbn [concat]; rewrite app_nil_r; exact E).
    reflexivity. }
  clear - M. revert b M. induction a as [|x a IH]; intros [|y b] M; cbn [map] in M; try discriminate; [reflexivity|].
  injection M as E1 E2. rewrite E1, (IH _ E2). reflexivity.
Qed.

(** [ch] has arrived, [os] has been handed out. *)
Definition rx (c : conn) (ch : list bytes) (os : list out) : Prop :=
  okc c /\ c_eof c = false /\ feed_all reader_pg ch = (os ++ fst (eager c), snd (eager c)).

Lemma rx_new k ann : rx (new_conn k ann) [] [].
Proof. split; [apply okc_new|]. split; [reflexivity|]. rewrite eager_new. reflexivity. Qed.

Lemma rx_feed c ch os b : rx c ch os -> rx (feed_conn b c) (ch ++ nonnil [b]) os.
Proof.
  intros (Hok & He & Hf). unfold feed_conn, nonnil. rewrite He, orb_false_r. cbn [filter].
  destruct (is_nil b); cbn [negb].
  - rewrite app_nil_r. split; [exact Hok|split; [exact He|exact Hf]].
  - split; [exact Hok|]. split; [reflexivity|]. apply eager_snoc. exact Hf.
Qed.

Lemma rx_poll c ch os next : rx c ch os -> expected ch false = os ++ next ->
  match next with
  | [] => exists c', poll_stream (S (length (c_inq c))) c = (PPending, c') /\ rx c' ch os
  | OItem i :: _ => exists c', poll_stream (S (length (c_inq c))) c = (PItem (OItem i), c') /\ rx c' ch (os ++ [OItem i])
  | _ => True
  end.
Proof.
  intros (Hok & He & Hf) Hex.
  assert (fst (eager c) = next) as <- by (unfold expected in Hex; rewrite Hf in Hex; exact (app_inv_head _ _ _ Hex)).
  destruct (poll_stream (S (length (c_inq c))) c) as [p c'] eqn:HP.
  destruct (poll_keeps _ _ _ _ HP) as ((_ & _ & He' & _) & _).
  pose proof (poll_post_spec _ _ _ _ Hok (Nat.lt_succ_diag_r _) HP) as HS.
  unfold poll_post in HS. destruct p as [[i|e|s|]| |].
  - destruct HS as [Hok' Hea]. rewrite Hea in *. cbn [fst snd] in *.
    exists c'. split; [reflexivity|]. split; [exact Hok'|]. split; [congruence|].
    rewrite Hf, <- app_assoc. reflexivity.
  - destruct HS as [[-> _]|(_ & Hx & _)]; [exact I|congruence].
  - contradiction.
  - contradiction.
  - destruct HS as (Hok' & Hp & Hea). rewrite Hea in *. cbn [fst snd] in *.
    exists c'. split; [reflexivity|]. split; [exact Hok'|]. split; [congruence|].
    rewrite (parked_eager c' Hp). exact Hf.
  - destruct HS as (Hx & _). congruence.
Qed.

Definition side (j : N) (wire : bytes) (w : world) : Prop :=
  memN j (w_peers w) = true /\ exists c, get_conn j (w_conns w) = Some c /\ c_wire c = wire.

Lemma side_frame j wire w w' : fq_frame w w' -> side j wire w -> side j wire w'.
Proof.
  intros F (P & c & G & W). destruct (fq_frame_get _ _ _ _ F G) as (c' & G' & _ & _ & _ & W' & _).
  split; [rewrite (proj1 (proj2 F)); exact P|]. exists c'. split; [exact G'|congruence].
Qed.

Lemma side_attach t j : side j [] (do_attach (world0 t) j None).
Proof.
  split.
  - rewrite (proj1 (proj2 (do_attach_tables _ _ _))), memN_snoc, N.eqb_refl. apply orb_true_r.
  - rewrite do_attach_get, N.eqb_refl. eexists. split; [reflexivity|]. destruct t; reflexivity.
Qed.

Lemma side_write j wire w m : side j wire w -> side j (wire ++ encode_frames m) (write_msg w j m).
Proof.
  intros (P & c & G & W). split; [rewrite (proj1 (proj2 (write_msg_tables w j m))); exact P|].
  rewrite write_msg_get, N.eqb_refl, G. eexists. split; [reflexivity|].
  cbn [c_with_wire c_wire]. rewrite W. reflexivity.
Qed.

Lemma wire_step j wire w : side j wire w ->
  exists w', World.step w (OWire j) = ([BWire j wire], w') /\ w_type w' = w_type w /\ w_cur w' = w_cur w /\
             side j [] w'.
Proof.
  intros (P & c & G & W). cbn [World.step]. rewrite G, W.
  eexists. split; [reflexivity|]. split; [reflexivity|]. split; [reflexivity|].
  split; [exact P|]. exists (c_with_wire c []). split; [apply (get_upd_conn w j c); [exact G|reflexivity]|reflexivity].
Qed.

Definition anns_none (l : list conn) : Prop := Forall (fun c => c_ann c = None) l.

(** k is the only registered stream, and announced no identity (a ROUTER then labels its messages with k) *)
Definition lone (k : N) (w : world) : Prop :=
  (forall k', memN k' (w_streams w) = true -> k' = k) /\
  exists c, get_conn k (w_conns w) = Some c /\ c_ann c = None.

Definition single (k : N) (ch : list bytes) (os : list out) (w : world) : Prop :=
  lone k w /\ st_inv k ch false os w.

Lemma lone_frame k w w' : fq_frame w w' -> lone k w -> lone k w'.
Proof.
  intros F (Hs & c & G & A). destruct (fq_frame_get _ _ _ _ F G) as (c' & G' & _ & A' & _).
  destruct F as (_ & _ & S & _).
  split; [intros k' M; exact (Hs k' (S k' M))|]. exists c'. split; [exact G'|congruence].
Qed.

Lemma single_attach t k : has_fq t = true -> single k [] [] (do_attach (world0 t) k None).
Proof.
  intros Hf. destruct (attached_Ginv t [k] Hf) as [_ K].
  destruct (do_attach_tables (world0 t) k None) as (_ & _ & _ & _ & _ & S & _).
  split; [split|exact (K k (or_introl eq_refl))].
  - rewrite S. cbn [world0 w_type w_streams memN existsb negb]. rewrite Hf. cbn [andb app].
    intros k' M. apply memN_In in M. destruct M as [E|[]]. symmetry. exact E.
  - exists (new_conn k None). split; [|reflexivity]. rewrite do_attach_get, N.eqb_refl.
    cbn [world0 w_type]. destruct t; try discriminate Hf; reflexivity.
Qed.

Lemma single_feed k ch os w b : single k ch os w -> single k (ch ++ nonnil [b]) os (do_feed w k b).
Proof.
  intros [Hl Hst]. split; [exact (lone_frame _ _ _ (do_feed_frame w k b) Hl)|].
  pose proof (st_feed k k b ch false os w Hst) as X.
  cbn [chunks_of closed_of orb] in X. rewrite N.eqb_refl in X. cbn [andb] in X.
  unfold nonnil. cbn [filter]. destruct (negb (is_nil b)); exact X.
Qed.

Lemma run_feeds k chunks ch os w ops : single k ch os w ->
  exists w', World.run w (map (OFeed k) chunks ++ ops) = World.run w' ops /\
             single k (ch ++ nonnil chunks) os w' /\ fq_frame w w'.
Proof.
  intros Hs. apply (feeds_inv k (fun ch w' => single k ch os w' /\ fq_frame w w')).
  - intros ch0 w0 b [Hs0 F]. split; [apply single_feed; exact Hs0|].
    exact (fq_frame_trans _ _ _ F (do_feed_frame w0 k b)).
  - split; [exact Hs|apply fq_frame_refl].
Qed.

Definition hand_out (t : stype) (k : N) (m : msg) (w1 : world) : obs * world :=
  match t with
  | ROUTER =>
    match get_conn k (w_conns w1) with
    | Some c => match c_ann c with
                | Some b => (BRecv None (b :: m), w1)
                | None => (BRecv (Some k) m, w1)
                end
    | None => (BRecv (Some k) m, w1)
    end
  | REP =>
    match rep_split m with
    | Ok (env, data) => (BRecv None data, with_cur w1 (Some k) (Some env))
    | Err e => (BRecvErr e, w1)
    | Panic _ => (BRecvErr EOther, w1)
    end
  | XPUB =>
    match get_conn k (w_conns w1) with
    | Some c => (BRecv None m, if memN k (w_peers w1) then upd_conn w1 (c_with_subs c (on_sub_msg (c_subs c) m)) else w1)
    | None => (BRecv None m, w1)
    end
  | _ => (BRecv None m, w1)
  end.

Lemma recv_fq_S f w :
  recv_fq (S f) w =
    match fq_next (next_fuel w) w with
    | (FPending, w1) => (BRecvPending, w1)
    | (FItem k (OItem (IMessage m)), w1) => hand_out (w_type w) k m w1
    | (FItem k (OItem _), w1) => recv_fq f w1
    | (FItem k (OErr e), w1) =>
      let w2 := peer_disconnected w1 k in
      match w_type w with
      | ROUTER => recv_fq f w2
      | _ => (BRecvErr e, w2)
      end
    | (FItem k _, w1) => (BRecvErr EOther, w1)
    end.
Proof. reflexivity. Qed.

Lemma recv_next k ch os w next : has_fq (w_type w) = true -> single k ch os w ->
  expected ch false = os ++ next ->
  exists w1, fq_frame w w1 /\
    match next with
    | [] => World.step w ORecv = ([BRecvPending], w1)
    | OItem (IMessage m) :: _ =>
        World.step w ORecv = (let '(b, w') := hand_out (w_type w) k m w1 in ([b], w')) /\
        single k ch (os ++ [OI m]) w1
    | _ => True
    end.
Proof.
  intros Ht [Hl Hst] He. rewrite (step_recv_fq w Ht). unfold recv_fuel. rewrite recv_fq_S.
  destruct (fq_next (next_fuel w) w) as [r w1] eqn:H.
  pose proof (fq_next_frame _ _ _ _ H) as F. exists w1. split; [exact F|].
  pose proof (lone_frame _ _ _ F Hl) as Hl1.
  assert (length (w_heap w) < next_fuel w)%nat as Hfu by (unfold next_fuel; lia).
  pose proof (fq_next_spec k ch false os _ w r w1 Hfu H Hst) as NP.
  destruct r as [k' o|]; cbn [next_post] in NP.
  - pose proof (proj1 Hl k' (fq_next_only_registered _ _ _ _ _ H)) as ->. rewrite N.eqb_refl in NP.
    destruct o as [i|e|s|]; [| |contradiction|contradiction].
    + (* an item: it is the head of [next] *)
      destruct (st_prefix k ch false _ w1 (or_introl NP)) as [rest E].
      rewrite He, <- app_assoc in E. apply app_inv_head in E. subst next.
      destruct i as [g|ps|m]; [exact I|exact I|]. split; [reflexivity|]. split; [exact Hl1|left; exact NP].
    + (* an error: the reading stopped there *)
      destruct NP as [[_ Ho]|[Hc _]]; [|discriminate]. unfold expected in He.
      destruct (feed_all reader_pg ch) as [o r]. cbn [fst] in Ho. rewrite Ho in He.
      apply app_inv_head in He. subst next. exact I.
  - destruct NP as [Hheap Hst1]. rewrite <- (st_complete k ch false os w1 Hst1 Hheap) in He.
    rewrite <- (app_nil_r os) in He at 1. apply app_inv_head in He. subst next. reflexivity.
Qed.

(** what the application sees of m, when k announced no identity *)
Definition recv_obs (t : stype) (k : N) (m : msg) : obs :=
  match t with
  | ROUTER => BRecv (Some k) m
  | REP => match rep_split m with Ok (_, data) => BRecv None data | Err e => BRecvErr e | Panic _ => BRecvErr EOther end
  | _ => BRecv None m
  end.

Lemma hand_obs t k m w : lone k w -> fst (hand_out t k m w) = recv_obs t k m.
Proof.
  intros (_ & c & G & A). unfold hand_out, recv_obs. rewrite G, A.
  destruct t; try reflexivity. destruct (rep_split m) as [[e d]| |]; reflexivity.
Qed.

(** the hand-over keeps the invariant: the only field of a connection it writes is XPUB's [c_subs] *)
Lemma hand_single t k m ch os w : single k ch os w ->
  single k ch os (snd (hand_out t k m w)) /\ w_type (snd (hand_out t k m w)) = w_type w.
Proof.
  intros Hs. unfold hand_out. destruct t; try (split; [exact Hs|reflexivity]).
  - destruct (rep_split m) as [[e d]| |]; (split; [exact Hs|reflexivity]).
  - destruct (get_conn k (w_conns w)) as [c|]; [destruct (c_ann c)|]; (split; [exact Hs|reflexivity]).
  - destruct (get_conn k (w_conns w)) as [c|] eqn:G; [|split; [exact Hs|reflexivity]].
    destruct (memN k (w_peers w)); (split; [|reflexivity]); [|exact Hs]. cbn [snd].
    destruct Hs as [(Hm & c0 & G0 & A) Hst]. rewrite G in G0. injection G0 as <-.
    pose proof (get_upd_conn w k c (c_with_subs c (on_sub_msg (c_subs c) m)) G eq_refl) as G1.
    split; [split; [exact Hm|eexists; split; [exact G1|exact A]]|].
    destruct Hst as [(c1 & Gc & L)|D]; [|right; exact D].
    rewrite G in Gc. injection Gc as <-. left. eexists. split; [exact G1|exact L].
Qed.

(** [Q ms w] is whatever the caller wants to know about the world after the messages ms have been handed
    over: it has to survive arrivals and polls ([fq_frame]) and to follow the hand-over. *)
Section Recvs.
  Variables (t : stype) (k : N) (Q : list msg -> world -> Prop).
  Hypothesis Ht : has_fq t = true.
  Hypothesis Q_frame : forall ms w w', fq_frame w w' -> Q ms w -> Q ms w'.
  Hypothesis Q_hand : forall ms m w, w_type w = t -> Q ms w -> Q (ms ++ [m]) (snd (hand_out t k m w)).

  Lemma run_recvs ch : forall (ms2 ms1 : list msg) w ops,
    w_type w = t -> single k ch (map OI ms1) w -> Q ms1 w ->
    expected ch false = map OI (ms1 ++ ms2) ->
    exists w', World.run w (repeat ORecv (S (length ms2)) ++ ops) =
                 map (recv_obs t k) ms2 ++ BRecvPending :: World.run w' ops /\
               w_type w' = t /\ Q (ms1 ++ ms2) w'.
  Proof.
    induction ms2 as [|m ms2 IH]; intros ms1 w ops T Hs HQ He;
      assert (has_fq (w_type w) = true) as Ht' by (rewrite T; exact Ht).
    - rewrite app_nil_r in *.
      destruct (recv_next k ch _ w [] Ht' Hs) as (w' & F & R); [rewrite app_nil_r; exact He|].
      exists w'. cbn [length repeat app map]. rewrite run_cons, R.
      split; [reflexivity|]. split; [rewrite (proj1 F); exact T|exact (Q_frame _ _ _ F HQ)].
    - rewrite map_app in He. cbn [map] in He.
      destruct (recv_next k ch _ w _ Ht' Hs He) as (w1 & F & R & Hs1).
      assert (w_type w1 = t) as T1 by (rewrite (proj1 F); exact T).
      rewrite T in R. rewrite (surjective_pairing (hand_out t k m w1)), (hand_obs t k m w1 (proj1 Hs1)) in R.
      destruct (hand_single t k m _ _ w1 Hs1) as [Hs2 T2].
      destruct (IH (ms1 ++ [m]) (snd (hand_out t k m w1)) ops) as (w' & R' & T' & HQ').
      + rewrite T2. exact T1.
      + rewrite map_app. exact Hs2.
      + apply Q_hand; [exact T1|]. exact (Q_frame _ _ _ F HQ).
      + rewrite <- app_assoc, map_app. exact He.
      + exists w'. change (repeat ORecv (S (length (m :: ms2)))) with (ORecv :: repeat ORecv (S (length ms2))).
        cbn [app]. rewrite run_cons, R. cbn [app map]. rewrite R', <- app_assoc in *.
        split; [reflexivity|split; assumption].
  Qed.

  (** attach, any chunking of the encodings of ms, one recv per message and one more: the application
      sees exactly ms, then nothing, and the run goes on from a world that satisfies [Q ms] *)
  Theorem fq_wire (ms : list msg) chunks ops :
    Q [] (do_attach (world0 t) k None) ->
    Forall wf_msg ms -> concat chunks = concat (map encode_frames ms) ->
    exists w', World.run (world0 t) (OAttach k None :: map (OFeed k) chunks ++ repeat ORecv (S (length ms)) ++ ops) =
               BAtt k None :: map (recv_obs t k) ms ++ BRecvPending :: World.run w' ops /\
               w_type w' = t /\ Q ms w'.
  Proof.
    intros Q0 Hwf Hc. rewrite run_cons, step_attach. cbn [app].
    destruct (run_feeds k chunks [] [] _ (repeat ORecv (S (length ms)) ++ ops) (single_attach t k Ht))
      as (w1 & R1 & S1 & F1).
    rewrite R1. cbn [app] in S1.
    destruct (run_recvs (nonnil chunks) ms [] w1 ops) as (w2 & R2 & T2 & Q2).
    - rewrite (proj1 F1). exact (proj1 (do_attach_tables (world0 t) k None)).
    - exact S1.
    - exact (Q_frame _ _ _ F1 Q0).
    - apply expected_encodings; [exact Hwf|]. rewrite concat_nonnil. exact Hc.
    - exists w2. rewrite R2. split; [reflexivity|split; assumption].
  Qed.
End Recvs.
