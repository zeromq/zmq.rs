(** Proofs about the fair-queue transition system (Model/FairQueue.v). Stdlib only. *)
From ZV Require Import Base.Bytes Model.FairQueue.

(** [the_src q] is [src_of (f_srcs q)] by conversion; the lemmas are about [src_of], which can be said of a store that
    is not yet a field of a state. *)
Definition src_of (l : list (N * src)) (k : N) : src :=
  match get_src k l with Some s => s | None => src0 end.

Lemma the_src_eq : forall q k, the_src q k = src_of (f_srcs q) k.
Proof. reflexivity. Qed.

Lemma get_put : forall k k' s l, get_src k' (put_src k s l) = if k =? k' then Some s else get_src k' l.
Proof.
  induction l as [|[k2 s2] t IH]; cbn [put_src get_src]; auto.
  destruct (N.eqb_spec k2 k) as [->|Hne]; cbn [get_src].
  - destruct (k =? k'); auto.
  - rewrite IH. destruct (N.eqb_spec k2 k') as [<-|]; auto.
    apply N.eqb_neq in Hne. rewrite N.eqb_sym, Hne. auto.
Qed.

Lemma src_of_put : forall k k' s l,
  src_of (put_src k s l) k' = if k =? k' then s else src_of l k'.
Proof. intros. unfold src_of. rewrite get_put. destruct (k =? k'); auto. Qed.

(** what [LInsert k] does to the store is invisible through [src_of] *)
Lemma src_of_insert : forall k k' l,
  src_of (match get_src k l with Some _ => l | None => put_src k src0 l end) k' = src_of l k'.
Proof.
  intros. destruct (get_src k l) eqn:E; auto.
  rewrite src_of_put. destruct (N.eqb_spec k k') as [<-|]; auto.
  unfold src_of; rewrite E; auto.
Qed.

Lemma put_keep : forall {A} (g : src -> A) k k' s l, g s = g (src_of l k) ->
  g (src_of (put_src k s l) k') = g (src_of l k').
Proof. intros. rewrite src_of_put. destruct (N.eqb_spec k k') as [<-|]; auto. Qed.

Lemma memN_In : forall k l, memN k l = true <-> In k l.
Proof.
  intros. unfold memN. rewrite existsb_exists. split.
  - intros [x [Hx E]]. apply N.eqb_eq in E; subst; auto.
  - intros. exists k. rewrite N.eqb_refl; auto.
Qed.

Lemma delN_In : forall k k' l, In k (delN k' l) <-> In k l /\ k <> k'.
Proof.
  intros. unfold delN. rewrite filter_In. destruct (N.eqb_spec k k'); cbn [negb]; intuition congruence.
Qed.

Lemma In_snoc : forall (k k' : N) l, In k (l ++ [k']) <-> In k l \/ k' = k.
Proof. intros. rewrite in_app_iff. cbn [In]. tauto. Qed.

Lemma heap_insert_In : forall e e' h, In e (heap_insert e' h) <-> e' = e \/ In e h.
Proof.
  induction h as [|x t IH]; cbn [heap_insert]; [reflexivity|].
  destruct (fst e' <? fst x); cbn [In]; [reflexivity|]. rewrite IH. split; intros [|[|]]; auto.
Qed.

Lemma heap_insert_length : forall e h, length (heap_insert e h) = S (length h).
Proof.
  induction h as [|x t IH]; cbn [heap_insert length]; auto.
  destruct (fst e <? fst x); cbn [length]; auto.
Qed.

(** [Step q l (q', es)] lists what [step q l] can be: one constructor for each branch of [step] that changes
    the state, with what is known when it is taken as far as some proof below needs it, and one for all the
    branches that do nothing.  The proofs of the invariants never unfold [step]: they take [step_spec]
    apart.  Invoking the receiver's waker is written out: [wake_receiver _ true] leaves no waker stored,
    [wake_receiver _ false] leaves what there was, both set [f_woken] if one was stored.  [LWake] comes in
    two kinds ([Hw]): the registration that fires may be the one made by the stream poll in progress, whose
    [QPending] then becomes [QYield]. *)
Definition always_acts (l : label) : bool :=
  match l with LInsert _ | LRemove _ | LArrive _ _ | LClose _ => true | _ => false end.

Inductive Step (q : fq) : label -> fq * list event -> Prop :=
| St_stutter l (Hl : always_acts l = false) : Step q l (q, [])
| St_start (Hpc : f_pc q = Idle) :
    Step q LStart
      (set_fq q (f_counter q) (f_heap q) (f_streams q) (f_srcs q) (f_rwaker q) Loop false false (f_wakes q), [])
| St_empty (park : bool) (Hpc : f_pc q = Loop) (Hh : f_heap q = []) :
    Step q LR1
      (set_fq q (f_counter q) [] (f_streams q) (f_srcs q) true Idle park (f_woken q) (f_wakes q),
       [if park then EPending else ENone])
| St_out ev h (Hpc : f_pc q = Loop) (Hh : f_heap q = ev :: h) :
    Step q LR1
      (set_fq q (f_counter q) h (delN (snd ev) (f_streams q)) (f_srcs q) true (Out ev) false (f_woken q) (f_wakes q), [])
| St_skip ev h (Hpc : f_pc q = Loop) (Hh : f_heap q = ev :: h) (Hm : ~ In (snd ev) (f_streams q)) :
    Step q LR1
      (set_fq q (f_counter q) h (f_streams q) (f_srcs q) true Loop false (f_woken q) (f_wakes q), [])
| St_some ev x rest (Hpc : f_pc q = Out ev) (Hi : s_items (src_of (f_srcs q) (snd ev)) = x :: rest) :
    Step q LR2
      (set_fq q (f_counter q) (f_heap q) (f_streams q)
         (put_src (snd ev) {| s_items := rest; s_closed := s_closed (src_of (f_srcs q) (snd ev)); s_reg := s_reg (src_of (f_srcs q) (snd ev)) |}
            (f_srcs q))
         (f_rwaker q) (Polled ev (QSome x)) (f_parked q) (f_woken q) (f_wakes q), [])
| St_none ev (Hpc : f_pc q = Out ev) (Hc : s_closed (src_of (f_srcs q) (snd ev)) = true) :
    Step q LR2
      (set_fq q (f_counter q) (f_heap q) (f_streams q) (f_srcs q) (f_rwaker q) (Polled ev QNone)
         (f_parked q) (f_woken q) (f_wakes q), [])
| St_pending ev (Hpc : f_pc q = Out ev) (Hi : s_items (src_of (f_srcs q) (snd ev)) = []) :
    Step q LR2
      (set_fq q (f_counter q) (f_heap q) (f_streams q)
         (put_src (snd ev) {| s_items := []; s_closed := false; s_reg := Some ev |} (f_srcs q))
         (f_rwaker q) (Polled ev QPending) (f_parked q) (f_woken q) (f_wakes q), [])
| St_yield ev (Hpc : f_pc q = Out ev) :
    Step q LR2Y
      (set_fq q (f_counter q) (heap_insert ev (f_heap q)) (f_streams q) (f_srcs q) false (Polled ev QYield)
         (f_parked q) (f_woken q || f_rwaker q) (if f_rwaker q then f_wakes q + 1 else f_wakes q), [])
| St_ready ev x (Hpc : f_pc q = Polled ev (QSome x)) :
    Step q LR3
      (set_fq q (f_counter q + 1) (heap_insert (f_counter q, snd ev) (f_heap q)) (f_streams q ++ [snd ev]) (f_srcs q)
         (f_rwaker q) Idle false (f_woken q) (f_wakes q), [EReady (snd ev) x])
| St_drop ev (Hpc : f_pc q = Polled ev QNone) :
    Step q LR3
      (set_fq q (f_counter q) (f_heap q) (f_streams q) (f_srcs q) (f_rwaker q) Loop (f_parked q) (f_woken q) (f_wakes q), [])
| St_back ev (Hpc : f_pc q = Polled ev QPending) :
    Step q LR3
      (set_fq q (f_counter q) (f_heap q) (f_streams q ++ [snd ev]) (f_srcs q) (f_rwaker q) Loop
         (f_parked q) (f_woken q) (f_wakes q), [])
| St_yielded ev (Hpc : f_pc q = Polled ev QYield) :
    Step q LR3
      (set_fq q (f_counter q) (f_heap q) (f_streams q ++ [snd ev]) (f_srcs q) (f_rwaker q) Idle true
         (f_woken q) (f_wakes q), [EPending])
| St_wake k c ev pc' (Hr : s_reg (src_of (f_srcs q) k) = Some ev)
    (Hw : pc' = f_pc q /\ (forall ev0, f_pc q = Polled ev0 QPending -> snd ev0 <> k) \/
          exists ev0, f_pc q = Polled ev0 QPending /\ snd ev0 = k /\ pc' = Polled ev0 QYield) :
    Step q (LWake k c)
      (set_fq q (f_counter q) (heap_insert ev (f_heap q)) (f_streams q)
         (if c then put_src k {| s_items := s_items (src_of (f_srcs q) k); s_closed := s_closed (src_of (f_srcs q) k); s_reg := None |} (f_srcs q)
          else f_srcs q)
         false pc' (f_parked q) (f_woken q || f_rwaker q) (if f_rwaker q then f_wakes q + 1 else f_wakes q), [])
| St_insert k :
    Step q (LInsert k)
      (set_fq q (f_counter q + 1) (heap_insert (f_counter q, k) (f_heap q))
         (if memN k (f_streams q) then f_streams q else f_streams q ++ [k])
         (match get_src k (f_srcs q) with Some _ => f_srcs q | None => put_src k src0 (f_srcs q) end)
         (f_rwaker q) (f_pc q) (f_parked q) (f_woken q || f_rwaker q) (if f_rwaker q then f_wakes q + 1 else f_wakes q), [])
| St_remove k :
    Step q (LRemove k)
      (set_fq q (f_counter q) (f_heap q) (delN k (f_streams q)) (f_srcs q) (f_rwaker q) (f_pc q)
         (f_parked q) (f_woken q) (f_wakes q), [])
| St_arrive k x :
    Step q (LArrive k x)
      (set_fq q (f_counter q) (f_heap q) (f_streams q)
         (put_src k {| s_items := s_items (src_of (f_srcs q) k) ++ [x]; s_closed := s_closed (src_of (f_srcs q) k); s_reg := s_reg (src_of (f_srcs q) k) |}
            (f_srcs q))
         (f_rwaker q) (f_pc q) (f_parked q) (f_woken q) (f_wakes q), [])
| St_close k :
    Step q (LClose k)
      (set_fq q (f_counter q) (f_heap q) (f_streams q)
         (put_src k {| s_items := s_items (src_of (f_srcs q) k); s_closed := true; s_reg := s_reg (src_of (f_srcs q) k) |} (f_srcs q))
         (f_rwaker q) (f_pc q) (f_parked q) (f_woken q) (f_wakes q), [])
.

Lemma wake_receiver_set : forall q c h st sr rw p pk wk n t,
  wake_receiver (set_fq q c h st sr rw p pk wk n) t =
  set_fq q c h st sr (if t then false else rw) p pk (wk || rw) (if rw then n + 1 else n).
Proof.
  intros. unfold wake_receiver. cbn. destruct rw, t; rewrite ?orb_true_r, ?orb_false_r; reflexivity.
Qed.

Lemma step_spec : forall q l, Step q l (step q l).
Proof.
  intros q l. destruct l; cbn [step]; change (the_src q) with (src_of (f_srcs q));
    try (constructor; reflexivity).
  - destruct (f_pc q) eqn:Hpc; constructor; auto.
  - destruct (f_pc q) eqn:Hpc; try (constructor; reflexivity).
    destruct (f_heap q) as [|ev h] eqn:Hh.
    + destruct (negb (is_nilN (f_streams q)) || f_block q); constructor; auto.
    + destruct (memN (snd ev) (f_streams q)) eqn:Hm; econstructor; eauto.
      rewrite <- memN_In, Hm. discriminate.
  - destruct (f_pc q) eqn:Hpc; try (constructor; reflexivity).
    destruct (s_items (src_of (f_srcs q) (snd ev))) eqn:Hi; [destruct (s_closed (src_of (f_srcs q) (snd ev))) eqn:Hc|];
      constructor; auto.
  - destruct (f_pc q) eqn:Hpc; rewrite ?wake_receiver_set; constructor; auto.
  - destruct (f_pc q) as [| | |ev []] eqn:Hpc; econstructor; eauto.
  - destruct (s_reg (src_of (f_srcs q) k)) as [ev|] eqn:Hr; rewrite ?wake_receiver_set; constructor; auto.
    destruct (f_pc q) as [| | |ev0 []]; try (left; split; [auto|discriminate]).
    destruct (N.eqb_spec (snd ev0) k); [right; eauto|left; split; congruence].
  - rewrite wake_receiver_set. constructor.
Qed.

(** computes the fields of the successor states that [Step] gives *)
Ltac proj := cbn [fst snd f_counter f_heap f_streams f_srcs f_rwaker f_pc f_parked f_woken f_wakes f_block set_fq].

Definition reachable (q : fq) : Prop := exists b ls, fst (run (fq0 b) ls) = q.

Lemma run_cons : forall ls l q,
  run q (l :: ls) = (fst (run (fst (step q l)) ls), snd (step q l) ++ snd (run (fst (step q l)) ls)).
Proof.
  intros. cbn [run]. destruct (step q l) as [q1 e1]. cbn [fst snd]. destruct (run q1 ls); auto.
Qed.

Lemma run_snoc_fst : forall ls l q, fst (run q (ls ++ [l])) = fst (step (fst (run q ls)) l).
Proof.
  induction ls as [|l' t IH]; intros; cbn [app]; rewrite !run_cons; cbn [fst]; auto.
Qed.

Lemma reachable_step : forall q l, reachable q -> reachable (fst (step q l)).
Proof. intros q l [b [ls <-]]. exists b, (ls ++ [l]). apply run_snoc_fst. Qed.

Lemma reachable_invariant : forall (P : fq -> Prop),
  (forall b, P (fq0 b)) ->
  (forall q l, P q -> P (fst (step q l))) ->
  forall q, reachable q -> P q.
Proof.
  intros P H0 Hs q [b [ls <-]]. induction ls as [|l ls IH] using rev_ind.
  - apply H0.
  - rewrite run_snoc_fst. auto.
Qed.

Definition in_flight (q : fq) (k : N) : list N :=
  match f_pc q with Polled ev (QSome x) => if snd ev =? k then [x] else [] | _ => [] end.
Fixpoint arrived (k : N) (ls : list label) : list N :=
  match ls with [] => [] | LArrive k' x :: t => if k' =? k then x :: arrived k t else arrived k t | _ :: t => arrived k t end.
Fixpoint delivered (k : N) (es : list event) : list N :=
  match es with [] => [] | EReady k' x :: t => if k' =? k then x :: delivered k t else delivered k t | _ :: t => delivered k t end.

Lemma step_exactly_once : forall q l k,
  delivered k (snd (step q l)) ++ in_flight (fst (step q l)) k ++ s_items (the_src (fst (step q l)) k) =
  (in_flight q k ++ s_items (the_src q k)) ++ arrived k [l].
Proof.
  intros q l k. unfold in_flight. rewrite !the_src_eq.
  destruct (step_spec q l); proj; rewrite ?Hpc, ?src_of_insert, ?(put_keep s_items) by reflexivity;
    cbn [delivered arrived app]; rewrite ?app_nil_r; auto.
  - (* St_stutter *) destruct l; try discriminate; rewrite app_nil_r; auto.
  - (* St_empty *) destruct park; auto.
  - (* St_some: the first item goes from the stream into flight *)
    rewrite src_of_put. destruct (N.eqb_spec (snd ev) k) as [<-|]; auto.
  - (* St_pending *) rewrite src_of_put. destruct (N.eqb_spec (snd ev) k) as [<-|]; auto.
  - (* St_wake *) destruct c; rewrite ?(put_keep s_items) by reflexivity; destruct Hw as [[-> _]|(ev0 & -> & _ & ->)]; auto.
  - (* St_arrive *) rewrite src_of_put. destruct (N.eqb_spec k0 k) as [<-|]; rewrite ?app_nil_r; auto.
    cbn [s_items]. apply app_assoc.
Qed.

Lemma delivered_app : forall k a b, delivered k (a ++ b) = delivered k a ++ delivered k b.
Proof.
  induction a as [|e t IH]; intros; auto. cbn [app delivered].
  destruct e; auto. destruct (k0 =? k); rewrite IH; auto.
Qed.

Lemma arrived_cons : forall k l t, arrived k (l :: t) = arrived k [l] ++ arrived k t.
Proof.
  intros. destruct l; cbn [arrived]; auto. destruct (k0 =? k); auto.
Qed.

Lemma run_exactly_once : forall ls q k,
  delivered k (snd (run q ls)) ++ in_flight (fst (run q ls)) k ++ s_items (the_src (fst (run q ls)) k) =
  (in_flight q k ++ s_items (the_src q k)) ++ arrived k ls.
Proof.
  induction ls as [|l t IH]; intros q k.
  - cbn [run fst snd delivered arrived app]. rewrite app_nil_r; auto.
  - rewrite run_cons. cbn [fst snd].
    rewrite delivered_app, <- app_assoc, IH, (arrived_cons k l t), (app_assoc _ (arrived k [l])).
    rewrite <- step_exactly_once, <- !app_assoc. reflexivity.
Qed.

Theorem fq_exactly_once_in_order : forall b ls q es k,
  run (fq0 b) ls = (q, es) ->
  delivered k es ++ in_flight q k ++ s_items (the_src q k) = arrived k ls.
Proof.
  intros b ls q es k H. pose proof (run_exactly_once ls (fq0 b) k) as E. rewrite H in E. exact E.
Qed.

Definition has_claim (q : fq) (k : N) : Prop := (exists p, In (p, k) (f_heap q)) \/ s_reg (the_src q k) <> None.
(** [has_claim q k] is [claim (f_heap q) (f_srcs q) k] by conversion: the form that can be said of the fields [Step] gives *)
Definition claim (h : list (N * N)) (s : list (N * src)) (k : N) : Prop :=
  (exists p, In (p, k) h) \/ s_reg (src_of s k) <> None.

Lemma claim_heap_insert : forall h s k e, claim h s k -> claim (heap_insert e h) s k.
Proof.
  intros h s k e [[p Hp]|H]; [left|right; auto].
  exists p. apply heap_insert_In; auto.
Qed.

Lemma claim_heap_new : forall h s k p, claim (heap_insert (p, k) h) s k.
Proof. intros. left. exists p. apply heap_insert_In; auto. Qed.

Lemma claim_In : forall h s ev, In ev h -> claim h s (snd ev).
Proof. intros h s [p k] H. left. exists p. auto. Qed.

Lemma claim_pop : forall ev h s k, claim (ev :: h) s k -> k <> snd ev -> claim h s k.
Proof.
  intros ev h s k [[p [Hp|Hp]]|H] Hk; [|left; exists p; auto|right; auto].
  subst ev. cbn [snd] in Hk. congruence.
Qed.

Lemma claim_wake : forall h s k k' ev new,
  s_reg (src_of s k) = Some ev -> snd ev = k ->
  claim h s k' -> claim (heap_insert ev h) (put_src k new s) k'.
Proof.
  intros h s k k' ev new Er Ek [[p Hp]|H].
  - left. exists p. apply heap_insert_In; auto.
  - destruct (N.eq_dec k k') as [->|Hne].
    + rewrite <- Ek. apply claim_In, heap_insert_In. auto.
    + right. rewrite src_of_put. apply N.eqb_neq in Hne. rewrite Hne. auto.
Qed.

(** The invariant, on the fields it reads: kept registrations carry their own key; every stream in the
    map has a claim; a stream poll that returned Pending holds the registration it made, and once its
    waker has fired the event is back in the heap. *)
Definition InvOn (h : list (N * N)) (st : list N) (s : list (N * src)) (p : pc) : Prop :=
  (forall k ev, s_reg (src_of s k) = Some ev -> snd ev = k) /\
  (forall k, In k st -> claim h s k) /\
  match p with
  | Polled ev QPending => s_reg (src_of s (snd ev)) = Some ev
  | Polled ev QYield => In ev h
  | _ => True
  end.

Definition Inv (q : fq) : Prop := InvOn (f_heap q) (f_streams q) (f_srcs q) (f_pc q).

Lemma InvOn_regs : forall h st s s' p,
  (forall k, s_reg (src_of s' k) = s_reg (src_of s k)) -> InvOn h st s p -> InvOn h st s' p.
Proof.
  intros h st s s' p E (RK & CL & PO). split; [|split].
  - intros k ev. rewrite E. apply RK.
  - intros k Hk. destruct (CL k Hk) as [Hp|H]; [left; auto|right; rewrite E; auto].
  - destruct p as [| | |ev []]; auto. rewrite E; auto.
Qed.

Lemma Inv_step : forall q l, Inv q -> Inv (fst (step q l)).
Proof.
  intros q l I. unfold Inv in *.
  destruct (step_spec q l); proj; auto;
    try (apply InvOn_regs with (s := f_srcs q);
         [intro; rewrite ?src_of_insert; solve [auto using (put_keep s_reg)]|]);
    rewrite ?Hpc, ?Hh in I; destruct I as (RK & CL & PO); (split; [|split]); auto.
  - (* St_out *) intros k Hk. apply delN_In in Hk as [Hk Hne]. eapply claim_pop; eauto.
  - (* St_skip *) intros k Hk. eapply claim_pop; eauto. intros ->. auto.
  - (* St_pending *) intros k ev0. rewrite src_of_put.
    destruct (N.eqb_spec (snd ev) k) as [<-|]; [cbn [s_reg]; congruence|apply RK].
  - intros k Hk. unfold claim. rewrite src_of_put.
    destruct (N.eqb_spec (snd ev) k); [right; discriminate|apply CL; auto].
  - rewrite src_of_put, N.eqb_refl. auto.
  - (* St_yield *) intros. apply claim_heap_insert; auto.
  - apply heap_insert_In; auto.
  - (* St_ready *) intros k Hk. apply In_snoc in Hk as [Hk|<-].
    + apply claim_heap_insert; auto.
    + apply claim_heap_new.
  - (* St_back: the stream goes back with the registration it made *)
    intros k Hk. apply In_snoc in Hk as [Hk|<-]; auto. right. congruence.
  - (* St_yielded: ... or with its event in the heap *)
    intros k Hk. apply In_snoc in Hk as [Hk|<-]; auto. apply claim_In; auto.
  - (* St_wake *) intros k0 ev1. destruct c; [|apply RK].
    rewrite src_of_put. destruct (N.eqb_spec k k0); [discriminate|apply RK].
  - intros k0 Hk. destruct c; [eapply claim_wake; eauto|apply claim_heap_insert; auto].
  - destruct Hw as [[-> Hw]|(ev0 & Epc & Ek & ->)].
    + destruct (f_pc q) as [| | |ev0 []]; auto.
      * destruct c; auto. rewrite src_of_put.
        destruct (N.eqb_spec k (snd ev0)) as [->|]; auto. destruct (Hw ev0); auto.
      * apply heap_insert_In; auto.
    + (* the registration that fires is the one the poll in progress made *)
      rewrite Epc, Ek in PO. apply heap_insert_In. left. congruence.
  - (* St_insert *) intros k0 Hk.
    destruct (memN k (f_streams q)); [|apply In_snoc in Hk as [Hk|<-]; [|apply claim_heap_new]];
      apply claim_heap_insert; auto.
  - destruct (f_pc q) as [| | |ev []]; auto. apply heap_insert_In; auto.
  - (* St_remove *) intros k0 Hk. apply delN_In in Hk as [Hk _]. auto.
Qed.

Lemma Inv_reachable : forall q, reachable q -> Inv q.
Proof.
  apply reachable_invariant; [|apply Inv_step].
  intros b. split; [|split]; cbn; [discriminate|contradiction|auto].
Qed.

Theorem fq_claim_invariant : forall q, reachable q -> forall k, In k (f_streams q) -> has_claim q k.
Proof. intros q R. apply (Inv_reachable q R). Qed.

Theorem fq_yield_event_queued : forall q ev, reachable q -> f_pc q = Polled ev QYield -> In ev (f_heap q).
Proof.
  intros q ev R Hpc. destruct (Inv_reachable q R) as (_ & _ & PO). unfold InvOn in PO. rewrite Hpc in PO. exact PO.
Qed.

(** Wherever the receiver can be left waiting, it has been woken or its waker is stored: while a stream is
    checked out, and when parked (then also: nothing is queued). *)
Definition InvPOn (p : pc) (parked woken rwaker : bool) (h : list (N * N)) : Prop :=
  match p with
  | Idle => parked = true -> woken = true \/ (h = [] /\ rwaker = true)
  | Loop => parked = false
  | Polled _ QYield => parked = false /\ woken = true
  | _ => parked = false /\ woken || rwaker = true
  end.

Definition InvP (q : fq) : Prop := InvPOn (f_pc q) (f_parked q) (f_woken q) (f_rwaker q) (f_heap q).

(** invoking the receiver's waker turns "woken or waker stored" into "woken", so that neither the heap nor
    the stored waker matters afterwards *)
Lemma InvPOn_wake : forall p pk w r r' h h', InvPOn p pk w r h -> InvPOn p pk (w || r) r' h'.
Proof.
  intros p pk w r r' h h'. destruct p as [| | |? []]; cbn [InvPOn]; auto; try (intros [E ->]; auto; fail).
  intros I E. left. destruct (I E) as [->|[_ ->]]; auto using orb_true_r.
Qed.

Lemma InvPOn_parked : forall p w r h, InvPOn p true w r h -> p = Idle.
Proof. intros p w r h. destruct p as [| | |? []]; cbn [InvPOn]; auto; try discriminate; intros [[=] _]. Qed.

Lemma InvP_step : forall q l, InvP q -> InvP (fst (step q l)).
Proof.
  intros q l I. unfold InvP in *.
  destruct (step_spec q l); proj; try rewrite Hpc in I; cbn [InvPOn] in *; auto using orb_true_r.
  - (* St_ready *) discriminate.
  - (* St_drop *) apply I.
  - (* St_back *) apply I.
  - (* St_yielded *) left. apply I.
  - (* St_wake *) destruct Hw as [[-> _]|(ev0 & Epc & _ & ->)]; [eapply InvPOn_wake, I|].
    rewrite Epc in I. exact I.
  - (* St_insert *) eapply InvPOn_wake, I.
Qed.

Lemma InvP_reachable : forall q, reachable q -> InvP q.
Proof.
  apply reachable_invariant; [|apply InvP_step]. intros b. cbn. discriminate.
Qed.

Theorem fq_parked_is_idle : forall q, reachable q -> f_parked q = true -> f_pc q = Idle.
Proof.
  intros q R Hp. pose proof (InvP_reachable q R) as I. unfold InvP in I. rewrite Hp in I.
  apply InvPOn_parked in I. exact I.
Qed.

Theorem fq_parked_invariant : forall q, reachable q ->
  f_parked q = true -> f_woken q = false -> f_heap q = [] /\ f_rwaker q = true /\ f_pc q = Idle.
Proof.
  intros q R Hp Hw. pose proof (InvP_reachable q R) as I. unfold InvP in I.
  rewrite (fq_parked_is_idle q R Hp) in *. destruct (I Hp) as [E|[]]; [congruence|auto].
Qed.

Definition checked_out (q : fq) : option N :=
  match f_pc q with Out ev => Some (snd ev) | Polled ev _ => Some (snd ev) | _ => None end.

(** A stream poll that wakes the waker it is polled with and returns Pending ([LR2Y]) makes poll_next return
    Pending at once (no spinning) with the stream's event queued, the stream back in the map and the
    receiver already woken (no lost wake-up). *)
(** both races below end here: the poll's event is queued and its waker has fired *)
Lemma yielded_returns : forall q1 ev e q2 es,
  f_pc q1 = Polled ev QYield -> In e (f_heap q1) -> step q1 LR3 = (q2, es) ->
  es = [EPending] /\ f_pc q2 = Idle /\ f_parked q2 = true /\ In e (f_heap q2) /\ In (snd ev) (f_streams q2) /\
  f_woken q2 = f_woken q1.
Proof.
  intros q1 ev e q2 es Hpc He H. cbn [step] in H. rewrite Hpc in H. injection H as <- <-. proj.
  repeat split; auto. apply In_snoc; auto.
Qed.

Theorem yield_returns_pending : forall q ev q1 q2 es,
  f_pc q = Out ev -> step q LR2Y = (q1, []) -> step q1 LR3 = (q2, es) ->
  es = [EPending] /\ f_pc q2 = Idle /\ f_parked q2 = true /\ In ev (f_heap q2) /\ In (snd ev) (f_streams q2) /\
  (f_rwaker q = true -> f_woken q2 = true).
Proof.
  intros q ev q1 q2 es Hpc H1 H2.
  cbn [step] in H1. rewrite Hpc, wake_receiver_set in H1. injection H1 as <-.
  apply (yielded_returns _ ev ev) in H2 as (E1 & E2 & E3 & E4 & E5 & ->); [|reflexivity|apply heap_insert_In; auto].
  proj. repeat split; auto. intros ->. apply orb_true_r.
Qed.

(** the same when the race is the other way round: the poll returned Pending and kept a registration, and
    that registration fires before the second critical section *)
Theorem wake_during_poll_returns_pending : forall q ev ev' c q1 q2 es,
  f_pc q = Polled ev QPending -> s_reg (the_src q (snd ev)) = Some ev' ->
  step q (LWake (snd ev) c) = (q1, []) -> step q1 LR3 = (q2, es) ->
  es = [EPending] /\ f_pc q2 = Idle /\ f_parked q2 = true /\ In ev' (f_heap q2) /\ In (snd ev) (f_streams q2) /\
  (f_rwaker q = true -> f_woken q2 = true).
Proof.
  intros q ev ev' c q1 q2 es Hpc Hr H1 H2.
  cbn [step] in H1. rewrite Hr, Hpc, N.eqb_refl, wake_receiver_set in H1. injection H1 as <-.
  apply (yielded_returns _ ev ev') in H2 as (E1 & E2 & E3 & E4 & E5 & ->); [|reflexivity|apply heap_insert_In; auto].
  proj. repeat split; auto. intros ->. apply orb_true_r.
Qed.

(** in every reachable state: a poll whose waker has fired has woken the receiver (or found it already
    woken during this call), so the Pending it makes poll_next return is never a parked-and-unwoken one *)
Theorem fq_yield_is_woken : forall q ev, reachable q -> f_pc q = Polled ev QYield ->
  f_woken q = true /\
  snd (step q LR3) = [EPending] /\ f_pc (fst (step q LR3)) = Idle /\
  f_parked (fst (step q LR3)) = true /\ f_woken (fst (step q LR3)) = true.
Proof.
  intros q ev R Hpc. pose proof (InvP_reachable q R) as I. unfold InvP in I. rewrite Hpc in I. destruct I as [_ I].
  destruct (step q LR3) as [q2 es] eqn:E. cbn [fst snd].
  apply (yielded_returns q ev ev) in E as (-> & -> & -> & _ & _ & ->); auto using fq_yield_event_queued.
Qed.

Definition InvC (q : fq) (k : N) : Prop :=
  s_closed (the_src q k) = false /\ (forall ev, f_pc q = Polled ev QNone -> snd ev <> k).
Definition held (q : fq) (k : N) : Prop := In k (f_streams q) \/ checked_out q = Some k.

Lemma InvC_step : forall q l k, l <> LClose k -> InvC q k -> InvC (fst (step q l)) k.
Proof.
  intros q l k Hl [C1 C2]. unfold InvC. rewrite the_src_eq in *.
  destruct (step_spec q l); proj; rewrite ?src_of_insert, ?(put_keep s_closed) by reflexivity; (split; [|try discriminate]); auto.
  - (* St_none: a stream found closed is not [k] *) intros ev0 [= <-] E. congruence.
  - (* St_pending *) rewrite src_of_put. destruct (N.eqb_spec (snd ev) k); auto.
  - (* St_wake *) destruct c; rewrite ?(put_keep s_closed) by reflexivity; auto.
  - destruct Hw as [[-> _]|(ev0 & _ & _ & ->)]; [auto|discriminate].
  - (* St_close *) rewrite src_of_put. destruct (N.eqb_spec k0 k) as [<-|]; auto. congruence.
Qed.

Lemma InvC_run : forall ls q k, ~ In (LClose k) ls -> InvC q k -> InvC (fst (run q ls)) k.
Proof.
  induction ls as [|l t IH]; intros q k Hc I; auto.
  apply not_in_cons in Hc as [Hc Hc']. rewrite run_cons. apply IH; auto. apply InvC_step; auto.
Qed.

(** the premise is [held] where a stream is checked out *)
Lemma In_put_back : forall (k k0 : N) st, In k st \/ Some k0 = Some k -> In k (st ++ [k0]).
Proof. intros k k0 st [H|[= <-]]; apply In_snoc; auto. Qed.

Lemma held_step : forall q l k, l <> LRemove k -> InvC q k -> held q k -> held (fst (step q l)) k.
Proof.
  intros q l k Hl [_ C2] H. unfold held, checked_out in *.
  destruct (step_spec q l); proj; rewrite ?Hpc in *; auto.
  - (* St_out *) destruct H as [H|[=]]. destruct (N.eq_dec (snd ev) k) as [->|]; auto.
    left. apply delN_In; auto.
  - (* St_ready *) left. apply In_put_back; auto.
  - (* St_drop: the stream that ended is not [k] *) destruct H as [H|[= E]]; auto. destruct (C2 ev); auto.
  - (* St_back *) left. apply In_put_back; auto.
  - (* St_yielded *) left. apply In_put_back; auto.
  - (* St_wake *) destruct Hw as [[-> _]|(ev0 & Epc & _ & ->)]; [|rewrite Epc in H]; auto.
  - (* St_insert *) destruct H as [H|H]; auto. left. destruct (memN k0 (f_streams q)); auto. apply in_or_app; auto.
  - (* St_remove *) destruct H as [H|H]; auto. left. apply delN_In. split; auto. congruence.
Qed.

Lemma held_insert : forall q k, held (fst (step q (LInsert k))) k.
Proof.
  intros. left. cbn [step]. rewrite wake_receiver_set. proj.
  destruct (memN k (f_streams q)) eqn:E; [apply memN_In; auto|apply in_or_app; cbn; auto].
Qed.

Lemma held_run : forall ls q k, ~ In (LRemove k) ls -> ~ In (LClose k) ls ->
  InvC q k -> held q k \/ In (LInsert k) ls -> held (fst (run q ls)) k.
Proof.
  induction ls as [|l t IH]; intros q k Hr Hc I H.
  - destruct H as [H|[]]. exact H.
  - apply not_in_cons in Hr as [Hr Hr'], Hc as [Hc Hc'].
    rewrite run_cons. apply IH; auto.
    + apply InvC_step; auto.
    + destruct H as [H|[->|H]]; auto.
      * left. apply held_step; auto.
      * left. apply held_insert.
Qed.

Theorem fq_no_stream_lost : forall b ls q es k, run (fq0 b) ls = (q, es) ->
  In (LInsert k) ls -> ~ In (LRemove k) ls -> ~ In (LClose k) ls ->
  In k (f_streams q) \/ checked_out q = Some k.
Proof.
  intros b ls q es k H Hi Hr Hc.
  change q with (fst (q, es)). rewrite <- H.
  apply held_run; auto.
  split; cbn; auto. discriminate.
Qed.

Corollary fq_no_stream_lost' : forall b ls q es k, run (fq0 b) ls = (q, es) ->
  In (LInsert k) ls -> ~ In (LRemove k) ls -> (forall x : N, ~ In (LClose k) ls) ->
  In k (f_streams q) \/ checked_out q = Some k.
Proof. intros. eapply fq_no_stream_lost; eauto. Qed.

(** Not for every window: one that is not consumed inside the call is replayed after it, and an [LStart]
    in it starts the next call. *)
Lemma poll_returns_idle_counterexample :
  f_pc (fq0 false) = Idle /\ f_pc (fst (poll (fq0 false) 0 [LStart])) = Loop.
Proof. split; reflexivity. Qed.

Lemma step_heap_len : forall q l, (length (f_heap (fst (step q l))) <= S (length (f_heap q)))%nat.
Proof.
  intros q l. destruct (step_spec q l); proj; rewrite ?heap_insert_length, ?Hh; cbn [length]; lia.
Qed.

Lemma run_heap_len : forall w q, (length (f_heap (fst (run q w))) <= length w + length (f_heap q))%nat.
Proof.
  induction w as [|l t IH]; intros q; [cbn; lia|].
  rewrite run_cons. specialize (IH (fst (step q l))).
  pose proof (step_heap_len q l). cbn [length fst]. lia.
Qed.

Lemma step_idle_noStart : forall q l, l <> LStart -> f_pc q = Idle -> f_pc (fst (step q l)) = Idle.
Proof.
  intros q l Hl Hpc. destruct (step_spec q l); proj; try congruence.
  destruct Hw as [[-> _]|(ev0 & E & _)]; congruence.
Qed.

Lemma run_idle_noStart : forall w q, ~ In LStart w -> f_pc q = Idle -> f_pc (fst (run q w)) = Idle.
Proof.
  induction w as [|l t IH]; intros q Hn Hpc; auto.
  apply not_in_cons in Hn as [Hn Hn'].
  rewrite run_cons. apply IH; auto. apply step_idle_noStart; auto.
Qed.

(** What one call of [poll_next] still has to do, counted in steps of the receiver: three for each event in
    the heap, and for each of the [W] events that labels scheduled into a later stream poll may add. *)
Definition meas (q : fq) (W : nat) : nat :=
  match f_pc q with
  | Idle => 0
  | Loop => 3 * (length (f_heap q) + W) + 1
  | Polled _ QYield => 1
  | Polled _ _ => 3 * (length (f_heap q) + W) + 2
  | Out _ => 3 * (length (f_heap q) + W) + 3
  end.

Definition budget (idx : nat) (w : list label) (nth : nat) : nat :=
  if Nat.leb nth idx then length w else 0%nat.

Lemma meas_LR1 : forall q W, f_pc q = Loop -> (meas (fst (step q LR1)) W < meas q W)%nat.
Proof.
  intros q W Hpc. cbn [step]. rewrite Hpc.
  destruct (f_heap q) as [|ev h] eqn:Hh;
    [destruct (negb (is_nilN (f_streams q)) || f_block q)|destruct (memN (snd ev) (f_streams q))];
    unfold meas; proj; rewrite Hpc, Hh; cbn [length]; lia.
Qed.

Lemma meas_LR3 : forall q W ev r, f_pc q = Polled ev r -> (meas (fst (step q LR3)) W < meas q W)%nat.
Proof. intros q W ev r Hpc. cbn [step]. rewrite Hpc. destruct r; unfold meas; proj; rewrite Hpc; lia. Qed.

Lemma meas_poll : forall q (y : bool) W,
  (meas (fst (step q (if y then LR2Y else LR2))) W <= 3 * (length (f_heap q) + W) + 2)%nat.
Proof.
  intros q y W. destruct y; cbn [step]; destruct (f_pc q) as [| |ev|ev r] eqn:Hpc; rewrite ?wake_receiver_set.
  (* only [LR2] with a stream checked out looks at the stream *)
  all: try match goal with |- context [s_items ?s] => destruct (s_items s); [destruct (s_closed s)|] end.
  all: unfold meas; proj; rewrite ?Hpc; try destruct r; lia.
Qed.

(** the window runs before the [idx]-th stream poll: that is what the budget was for *)
Lemma budget_spent : forall idx w nth q,
  (length (f_heap (fst (if Nat.eqb nth idx then run q w else (q, [])))) + budget idx w (S nth)
   <= length (f_heap q) + budget idx w nth)%nat.
Proof.
  intros. unfold budget. pose proof (run_heap_len w q).
  destruct (Nat.eqb_spec nth idx), (Nat.leb_spec (S nth) idx), (Nat.leb_spec nth idx); cbn [fst]; lia.
Qed.

(** In each branch: [surjective_pairing] names the state [poll_loop] continues from, so that the
    induction hypothesis applies to it; what is left is that the measure went down. *)
Lemma poll_loop_idle : forall idx w fuel q nth,
  (meas q (budget idx w nth) <= fuel)%nat ->
  f_pc (fst (fst (poll_loop fuel q idx w nth))) = Idle.
Proof.
  intros idx w. induction fuel as [|f IH]; intros q nth Hm.
  - cbn [poll_loop fst]. unfold meas in Hm. destruct (f_pc q) as [| |ev|ev []]; auto; lia.
  - cbn [poll_loop]. destruct (f_pc q) eqn:Epc; auto.
    + specialize (IH (fst (step q LR1)) nth). rewrite (surjective_pairing (step q LR1)).
      destruct (poll_loop f _ idx w nth) as [[q2 e2] n2]. apply IH.
      pose proof (meas_LR1 q (budget idx w nth) Epc). lia.
    + pose proof (budget_spent idx w nth q).
      rewrite (surjective_pairing (if Nat.eqb nth idx then run q w else (q, []))).
      set (q0 := fst (if Nat.eqb nth idx then run q w else (q, []))) in *.
      set (y := Nat.eqb nth idx && existsb _ w).
      specialize (IH (fst (step q0 (if y then LR2Y else LR2))) (S nth)).
      rewrite (surjective_pairing (step q0 _)).
      destruct (poll_loop f _ idx w (S nth)) as [[q2 e2] n2]. apply IH.
      pose proof (meas_poll q0 y (budget idx w (S nth))).
      unfold meas in Hm. rewrite Epc in Hm. lia.
    + specialize (IH (fst (step q LR3)) nth). rewrite (surjective_pairing (step q LR3)).
      destruct (poll_loop f _ idx w nth) as [[q2 e2] n2]. apply IH.
      pose proof (meas_LR3 q (budget idx w nth) _ _ Epc). lia.
Qed.

(** hence the premise that the window holds no [LStart] (in the harness it only carries environment labels) *)
Theorem poll_returns_idle_noStart : forall q idx w, ~ In LStart w ->
  f_pc q = Idle -> f_pc (fst (poll q idx w)) = Idle.
Proof.
  intros q idx w Hw Hpc. unfold poll. cbn [step]. rewrite Hpc.
  set (q1 := set_fq q _ _ _ _ _ _ _ _ _).
  (* [poll]'s fuel, [4 * (heap + window) + 12]: more than the [3 * (heap + window) + 1] that [meas] asks for in [Loop] *)
  pose proof (poll_loop_idle idx w (4 * (length (f_heap q1) + length w + 2) + 4) q1 0) as H.
  destruct (poll_loop _ q1 idx w 0) as [[q2 es] n]. cbn [fst] in H.
  assert (Hq2 : f_pc q2 = Idle).
  { apply H. unfold meas, budget. subst q1; proj. destruct (Nat.leb 0 idx); lia. }
  destruct (Nat.leb n idx); cbn [fst]; auto.
  pose proof (run_idle_noStart w q2 Hw Hq2) as Hr.
  destruct (run q2 w) as [q3 e3]; auto.
Qed.

Corollary poll_returns_idle_nil : forall q idx, f_pc q = Idle -> f_pc (fst (poll q idx [])) = Idle.
Proof. intros. apply poll_returns_idle_noStart; auto. Qed.

Definition env_label (l : label) : bool :=
  match l with LStart | LR1 | LR2 | LR2Y | LR3 => false | _ => true end.

Corollary poll_returns_idle_env : forall q idx w, forallb env_label w = true ->
  f_pc q = Idle -> f_pc (fst (poll q idx w)) = Idle.
Proof.
  intros q idx w Hw. apply poll_returns_idle_noStart.
  intros X. rewrite forallb_forall in Hw. specialize (Hw _ X). discriminate.
Qed.

Definition b2n (b : bool) : nat := if b then 1%nat else 0%nat.
Definition count {A} (f : A -> bool) (l : list A) : nat := length (filter f l).

Lemma count_cons : forall {A} (f : A -> bool) x l, count f (x :: l) = (b2n (f x) + count f l)%nat.
Proof. intros. unfold count. cbn [filter]. destruct (f x); auto. Qed.

Lemma count_insert : forall f e h, count f (heap_insert e h) = (b2n (f e) + count f h)%nat.
Proof.
  induction h as [|x t IH]; cbn [heap_insert]; [apply count_cons|].
  destruct (fst e <? fst x); rewrite !count_cons; auto. rewrite IH. lia.
Qed.

Lemma count_In_pos : forall {A} (f : A -> bool) x l, In x l -> f x = true -> (1 <= count f l)%nat.
Proof.
  intros A f x l Hin Hf. unfold count.
  assert (In x (filter f l)) by (apply filter_In; auto).
  destruct (filter f l); [contradiction|cbn; lia].
Qed.

Lemma count_le : forall {A} (f g : A -> bool) l, (forall x, f x = true -> g x = true) -> (count f l <= count g l)%nat.
Proof.
  intros A f g l H. induction l as [|x t IH]; auto. rewrite !count_cons.
  destruct (f x) eqn:E; [rewrite (H x E)|destruct (g x)]; cbn [b2n]; lia.
Qed.

Lemma count_split : forall {A} (f : A -> bool) l, (count f l + count (fun x => negb (f x)) l = length l)%nat.
Proof.
  induction l as [|x t IH]; auto. rewrite !count_cons. cbn [length]. destruct (f x); cbn [negb b2n]; lia.
Qed.

Lemma count_occ_one : forall a k, count_occ N.eq_dec [a] k = b2n (a =? k).
Proof.
  intros. cbn [count_occ]. destruct (N.eq_dec a k) as [->|E]; [rewrite N.eqb_refl|apply N.eqb_neq in E; rewrite E]; auto.
Qed.

Fixpoint insert_keys (ls : list label) : list N :=
  match ls with [] => [] | LInsert k :: t => k :: insert_keys t | _ :: t => insert_keys t end.

Lemma insert_keys_app : forall a b, insert_keys (a ++ b) = insert_keys a ++ insert_keys b.
Proof.
  induction a as [|l t IH]; intros; auto. cbn [app insert_keys].
  destruct l; auto. rewrite IH; auto.
Qed.

(** The claims of a key: its events in the heap, its kept registration, and the stream itself while it is polled.
    Counted through [checked_out], a stream whose poll returned Pending counts twice between [LR2] (which stores the
    registration) and [LR3] (which puts the stream back): *)
Definition claims_v0 (q : fq) (k : N) : nat :=
  length (filter (fun e => snd e =? k) (f_heap q)) + (match s_reg (the_src q k) with Some _ => 1 | None => 0 end)
  + (match checked_out q with Some k' => if k' =? k then 1 else 0 | None => 0 end).

Lemma claims_v0_counterexample :
  let ls := [LInsert 0; LStart; LR1; LR2] in
  (forall k c, In (LWake k c) ls -> c = true) /\ NoDup (insert_keys ls) /\
  claims_v0 (fst (run (fq0 false) ls)) 0 = 2%nat.
Proof.
  cbv zeta. split; [|split].
  - intros k c H. cbn in H. intuition discriminate.
  - cbn. constructor; [intros []|constructor].
  - reflexivity.
Qed.

(** Leaving out [QPending] alone counts a yielding stream twice: its event is already back in the heap. *)
Definition polling_v1 (q : fq) : option N :=
  match f_pc q with
  | Out ev => Some (snd ev)
  | Polled ev QPending => None
  | Polled ev _ => Some (snd ev)
  | _ => None
  end.
Definition claims_v1 (q : fq) (k : N) : nat :=
  length (filter (fun e => snd e =? k) (f_heap q)) + (match s_reg (the_src q k) with Some _ => 1 | None => 0 end)
  + (match polling_v1 q with Some k' => if k' =? k then 1 else 0 | None => 0 end).

Example claims_v1_counterexample :
  let ls := [LInsert 0; LStart; LR1; LR2Y] in
  (forall k c, In (LWake k c) ls -> c = true) /\ NoDup (insert_keys ls) /\
  claims_v1 (fst (run (fq0 false) ls)) 0 = 2%nat.
Proof.
  cbv zeta. split; [|split].
  - intros k c H. cbn in H. intuition discriminate.
  - cbn. constructor; [intros []|constructor].
  - vm_compute. reflexivity.
Qed.

(** the same double count without a yielding poll: the registration made by the poll in progress fires before [LR3] *)
Example claims_v1_counterexample_wake :
  let ls := [LInsert 0; LStart; LR1; LR2; LWake 0 true] in
  (forall k c, In (LWake k c) ls -> c = true) /\ NoDup (insert_keys ls) /\ ~ In LR2Y ls /\
  claims_v1 (fst (run (fq0 false) ls)) 0 = 2%nat.
Proof.
  cbv zeta. split; [|split; [|split]].
  - intros k c H. cbn in H. intuition (try discriminate). inversion H0; auto.
  - cbn. constructor; [intros []|constructor].
  - cbn. intuition discriminate.
  - vm_compute. reflexivity.
Qed.

(** The stream being polled is a claim of its own only until its poll has returned Pending or yielded: from then on its
    claim is the registration, or (the waker has fired) the event in the heap.  A stream found closed ([QNone]) is
    still counted here; [nclaims] and [claim_keys] below leave it out, so they are bounded by [claims], not equal. *)
Definition polling (q : fq) : option N :=
  match f_pc q with
  | Out ev => Some (snd ev)
  | Polled ev QPending => None
  | Polled ev QYield => None
  | Polled ev _ => Some (snd ev)
  | _ => None
  end.

Definition claims (q : fq) (k : N) : nat :=
  length (filter (fun e => snd e =? k) (f_heap q)) + (match s_reg (the_src q k) with Some _ => 1 | None => 0 end)
  + (match polling q with Some k' => if k' =? k then 1 else 0 | None => 0 end).

Definition regn (r : option (N * N)) : nat := match r with Some _ => 1%nat | None => 0%nat end.
Definition polc (p : pc) (k : N) : nat :=
  match p with
  | Out ev => b2n (snd ev =? k)
  | Polled ev QPending => 0
  | Polled ev QYield => 0
  | Polled ev _ => b2n (snd ev =? k)
  | _ => 0
  end.

(** [claims] on the fields of the state, [polc] standing for the summand of [polling]: the form the step lemmas rewrite *)
Lemma claims_eq : forall q k,
  claims q k =
  Nat.add (Nat.add (count (fun e => snd e =? k) (f_heap q)) (regn (s_reg (src_of (f_srcs q) k)))) (polc (f_pc q) k).
Proof.
  intros. unfold claims, polling, polc, count, regn. rewrite the_src_eq.
  destruct (f_pc q) as [| |ev|ev []]; auto.
Qed.

Definition ins_bump (l : label) (k : N) : nat := count_occ N.eq_dec (insert_keys [l]) k.

Lemma claims_step : forall q l k, Inv q -> (forall k0, l <> LWake k0 false) ->
  (claims (fst (step q l)) k <= claims q k + ins_bump l k)%nat.
Proof.
  intros q l k (RK & _) Hl. rewrite !claims_eq.
  destruct (step_spec q l); proj;
    rewrite ?Hpc, ?Hh, ?count_insert, ?count_cons, ?src_of_insert, ?(put_keep s_reg) by reflexivity; cbn [polc snd];
    try lia.
  - (* St_pending: the registration takes the place of the stream being polled *)
    rewrite src_of_put. destruct (snd ev =? k); cbn [s_reg regn b2n]; lia.
  - (* St_wake: the event takes the place of the registration that fired *)
    destruct c; [|destruct (Hl k0); auto].
    assert (polc pc' k = polc (f_pc q) k) by (destruct Hw as [[-> _]|(ev0 & -> & _ & ->)]; auto).
    rewrite src_of_put, (RK _ _ Hr).
    destruct (N.eqb_spec k0 k) as [<-|]; [rewrite Hr|]; cbn [s_reg regn b2n]; lia.
  - (* St_insert *) unfold ins_bump. cbn [insert_keys]. rewrite count_occ_one. lia.
Qed.

Definition Contract (q : fq) (ls : list label) : Prop :=
  reachable q /\ (forall k c, In (LWake k c) ls -> c = true) /\
  forall k, (claims q k + count_occ N.eq_dec (insert_keys ls) k <= 1)%nat.

Lemma Contract_consuming : forall q l t, Contract q (l :: t) -> forall k0, l <> LWake k0 false.
Proof. intros q l t (_ & Hw & _) k0 ->. discriminate (Hw k0 false). left; auto. Qed.

Lemma Contract_step : forall q l t, Contract q (l :: t) -> Contract (fst (step q l)) t.
Proof.
  intros q l t G. pose proof (Contract_consuming q l t G) as Hl. destruct G as (R & Hw & Hc).
  split; [apply reachable_step; auto|split].
  - intros k c H. apply (Hw k c). right; auto.
  - intros k. pose proof (claims_step q l k (Inv_reachable q R) Hl). specialize (Hc k).
    change (l :: t) with ([l] ++ t) in Hc. rewrite insert_keys_app, count_occ_app in Hc.
    fold (ins_bump l k) in Hc. lia.
Qed.

Lemma Contract_run : forall a b q, Contract q (a ++ b) -> Contract (fst (run q a)) b.
Proof.
  induction a as [|l t IH]; intros b q G; auto.
  rewrite run_cons. apply IH. apply (Contract_step q l (t ++ b) G).
Qed.

Lemma Contract_reached : forall b ls0 ls q es0, run (fq0 b) ls0 = (q, es0) ->
  (forall k c, In (LWake k c) (ls0 ++ ls) -> c = true) -> NoDup (insert_keys (ls0 ++ ls)) -> Contract q ls.
Proof.
  intros b ls0 ls q es0 H Hw Hn. change q with (fst (q, es0)). rewrite <- H. apply Contract_run.
  split; [exists b, []; auto|split; auto].
  intros k. apply (NoDup_count_occ N.eq_dec). exact Hn.
Qed.

Lemma Contract_one_claim : forall q ls k, Contract q ls -> (claims q k <= 1)%nat.
Proof. intros q ls k (_ & _ & Hc). specialize (Hc k). lia. Qed.

Definition pc_ev (p : pc) : option (N * N) :=
  match p with Out ev => Some ev | Polled ev _ => Some ev | _ => None end.

Definition prio_bound (q : fq) : Prop :=
  (forall e, In e (f_heap q) -> fst e < f_counter q) /\
  (forall k ev, s_reg (src_of (f_srcs q) k) = Some ev -> fst ev < f_counter q) /\
  (forall ev, pc_ev (f_pc q) = Some ev -> fst ev < f_counter q).

Lemma prio_bound_step : forall q l, prio_bound q -> prio_bound (fst (step q l)).
Proof.
  intros q l (H1 & H2 & H3). unfold prio_bound.
  destruct (step_spec q l); proj; rewrite ?Hpc, ?Hh in *; cbn [pc_ev] in *;
    (split; [intros e He|split; [intros k' ev' Hr'; rewrite ?src_of_insert, ?(put_keep s_reg) in Hr' by reflexivity|intros ev' Hev']]);
    try discriminate; try contradiction; eauto using N.lt_lt_add_r, in_cons.
  - (* St_out *) injection Hev' as <-. apply H1. left; auto.
  - (* St_pending *) rewrite src_of_put in Hr'. destruct (snd ev =? k'); [injection Hr' as <-|]; eauto.
  - (* St_yield *) apply heap_insert_In in He as [<-|He]; auto.
  - (* St_ready *) apply heap_insert_In in He as [<-|He]; [cbn [fst]; lia|]. apply H1 in He. lia.
  - (* St_wake *) apply heap_insert_In in He as [<-|He]; eauto.
  - destruct c; eauto. rewrite src_of_put in Hr'. destruct (k =? k'); [discriminate|eauto].
  - destruct Hw as [[-> _]|(ev0 & Epc & _ & ->)]; auto. rewrite Epc in H3. auto.
  - (* St_insert *) apply heap_insert_In in He as [<-|He]; [cbn [fst]; lia|]. apply H1 in He. lia.
Qed.

Theorem fq_prio_bound : forall q, reachable q -> prio_bound q.
Proof.
  apply reachable_invariant; [|apply prio_bound_step].
  intros b. split; [|split]; cbn; intros; try contradiction; discriminate.
Qed.

(** the heap is sorted by priority, so pop-min = head *)
Fixpoint sortedH (h : list (N * N)) : Prop :=
  match h with [] => True | x :: t => (forall e, In e t -> fst x <= fst e) /\ sortedH t end.

Lemma sortedH_insert : forall e h, sortedH h -> sortedH (heap_insert e h).
Proof.
  induction h as [|x t IH]; intros S; cbn [heap_insert].
  - cbn. split; auto. intros e' [].
  - destruct S as [S1 S2]. destruct (N.ltb_spec (fst e) (fst x)).
    + cbn [sortedH]. split; [|split; auto].
      intros e' [<-|He']; [lia|]. specialize (S1 e' He'). lia.
    + cbn [sortedH]. split; auto.
      intros e' He'. apply heap_insert_In in He' as [<-|He']; [lia|auto].
Qed.

Lemma sortedH_reachable : forall q, reachable q -> sortedH (f_heap q).
Proof.
  apply (reachable_invariant (fun q => sortedH (f_heap q))); [cbn; auto|].
  intros q l S. destruct (step_spec q l); proj; rewrite ?Hh in S; auto using sortedH_insert; apply S.
Qed.

(** potential: claims that are served before the event [(p, i)] *)
Definition ahead (p i : N) (e : N * N) : bool := (fst e <=? p) && negb (snd e =? i).
Definition regf (f : N * N -> bool) (s : src) : bool :=
  match s_reg s with Some ev => f ev | None => false end.
Definition rcount (f : N * N -> bool) (l : list (N * src)) : nat := count (fun ks => regf f (snd ks)) l.
Definition serving (q : fq) : nat :=
  match f_pc q with Out _ => 1%nat | Polled _ (QSome _) => 1%nat | _ => 0%nat end.

Definition ahead_count (p i : N) (q : fq) : nat :=
  Nat.add (Nat.add (count (ahead p i) (f_heap q)) (rcount (ahead p i) (f_srcs q))) (serving q).

Fixpoint nready (es : list event) : nat :=
  match es with [] => 0%nat | EReady _ _ :: t => S (nready t) | _ :: t => nready t end.

Lemma nready_app : forall a b, nready (a ++ b) = (nready a + nready b)%nat.
Proof. induction a as [|e t IH]; intros; auto. cbn [app nready]. destruct e; rewrite ?IH; auto. Qed.

Lemma rcount_put : forall f k s l,
  (rcount f (put_src k s l) + b2n (regf f (src_of l k)) = rcount f l + b2n (regf f s))%nat.
Proof.
  intros f k s. unfold rcount, src_of. induction l as [|[k' s'] t IH]; cbn [put_src get_src].
  - rewrite count_cons. cbn. lia.
  - destruct (k' =? k); rewrite !count_cons; cbn [snd]; lia.
Qed.

Lemma rcount_put_keep : forall f k s l, s_reg s = s_reg (src_of l k) -> rcount f (put_src k s l) = rcount f l.
Proof.
  intros f k s l E. pose proof (rcount_put f k s l) as H. unfold regf in H. rewrite E in H. lia.
Qed.

Lemma rcount_put_le : forall f k s l, (rcount f (put_src k s l) <= rcount f l + 1)%nat.
Proof. intros. pose proof (rcount_put f k s l). destruct (regf f s); cbn [b2n] in *; lia. Qed.

(** a consuming wake *)
Lemma rcount_put_clear : forall f k l ev, s_reg (src_of l k) = Some ev ->
  (rcount f (put_src k {| s_items := s_items (src_of l k); s_closed := s_closed (src_of l k); s_reg := None |} l)
   + b2n (f ev) = rcount f l)%nat.
Proof.
  intros f k l ev E. pose proof (rcount_put f k {| s_items := s_items (src_of l k); s_closed := s_closed (src_of l k); s_reg := None |} l) as H.
  unfold regf in H. rewrite E in H. cbn [s_reg b2n] in H. lia.
Qed.

Lemma rcount_insert : forall f k l,
  rcount f (match get_src k l with Some _ => l | None => put_src k src0 l end) = rcount f l.
Proof.
  intros. destruct (get_src k l) eqn:E; auto. apply rcount_put_keep. unfold src_of. rewrite E. auto.
Qed.

(** a stream with an event waiting in the heap has its one claim there: no other event is for it, and it is
    not the one being polled *)
Lemma waiting_alone : forall q p i ev h, (claims q i <= 1)%nat -> f_heap q = ev :: h -> In (p, i) h -> snd ev <> i.
Proof.
  intros q p i ev h Hc Hh Hin. rewrite claims_eq, Hh, count_cons in Hc.
  pose proof (count_In_pos (fun e => snd e =? i) (p, i) h Hin (N.eqb_refl i)).
  intros E. rewrite E, N.eqb_refl in Hc. cbn [b2n] in Hc. lia.
Qed.

Lemma waiting_not_polled : forall q p i, (claims q i <= 1)%nat -> In (p, i) (f_heap q) -> polc (f_pc q) i = 0%nat.
Proof.
  intros q p i Hc Hin. rewrite claims_eq in Hc.
  pose proof (count_In_pos (fun e => snd e =? i) (p, i) _ Hin (N.eqb_refl i)). lia.
Qed.

Lemma ahead_fresh : forall p i c k, p < c -> ahead p i (c, k) = false.
Proof. intros p i c k H. apply N.leb_gt in H. unfold ahead. cbn [fst]. rewrite H. auto. Qed.

Lemma ahead_step : forall p i q l,
  sortedH (f_heap q) -> p < f_counter q -> (claims q i <= 1)%nat ->
  (forall k0, l <> LWake k0 false) ->
  In (p, i) (f_heap (fst (step q l))) ->
  (nready (snd (step q l)) + ahead_count p i (fst (step q l)) <= ahead_count p i q)%nat.
Proof.
  intros p i q l S Hp Hc Hl. unfold ahead_count, serving.
  destruct (step_spec q l); proj; intros Hin;
    rewrite ?Hpc, ?Hh, ?count_insert, ?count_cons, ?rcount_insert, ?rcount_put_keep, ?ahead_fresh by auto;
    cbn [nready b2n]; try lia.
  - (* St_empty *) destruct Hin.
  - (* St_out: the event popped is ahead of [(p, i)]: the heap is sorted, and stream [i] has no second claim *)
    assert (Ha : ahead p i ev = true).
    { apply andb_true_intro. split.
      - rewrite Hh in S. apply N.leb_le, (proj1 S (p, i) Hin).
      - apply negb_true_iff, N.eqb_neq, (waiting_alone q p i ev h Hc Hh Hin). }
    rewrite Ha. cbn [b2n]. lia.
  - (* St_pending *)
    pose proof (rcount_put_le (ahead p i) (snd ev) {| s_items := []; s_closed := false; s_reg := Some ev |} (f_srcs q)).
    lia.
  - (* St_yield *) destruct (ahead p i ev); cbn [b2n]; lia.
  - (* St_wake: the event takes the place of the registration *)
    destruct c; [|destruct (Hl k); auto].
    pose proof (rcount_put_clear (ahead p i) k (f_srcs q) ev Hr).
    destruct Hw as [[-> _]|(ev0 & -> & _ & ->)]; lia.
Qed.

Lemma waiting_not_ready : forall q l i p x,
  (claims q i <= 1)%nat -> In (p, i) (f_heap q) -> ~ In (EReady i x) (snd (step q l)).
Proof.
  intros q l i p x Hc Hin. pose proof (waiting_not_polled q p i Hc Hin) as Hpol.
  destruct (step_spec q l); cbn [snd In]; auto.
  - (* St_empty *) destruct park; intros [[=]|[]].
  - (* St_ready *) intros [[= E _]|[]]. rewrite Hpc in Hpol. cbn [polc] in Hpol. rewrite E, N.eqb_refl in Hpol. discriminate.
  - (* St_yielded *) intros [[=]|[]].
Qed.

Fixpoint stays (p i : N) (q : fq) (ls : list label) : Prop :=
  match ls with
  | [] => True
  | l :: t => In (p, i) (f_heap (fst (step q l))) /\ stays p i (fst (step q l)) t
  end.

Lemma fairness_gen : forall p i ls q, Contract q ls -> In (p, i) (f_heap q) -> stays p i q ls ->
  (nready (snd (run q ls)) + ahead_count p i (fst (run q ls)) <= ahead_count p i q)%nat /\
  forall x, ~ In (EReady i x) (snd (run q ls)).
Proof.
  intros p i. induction ls as [|l t IH]; intros q G Hin Hs.
  - cbn. split; [lia|auto].
  - destruct Hs as [Hs1 Hs2]. pose proof (Contract_one_claim q _ i G) as Hci. destruct (G) as (R & _).
    assert (Hp : p < f_counter q) by (apply (fq_prio_bound q R) in Hin; auto).
    pose proof (ahead_step p i q l (sortedH_reachable q R) Hp Hci (Contract_consuming q l t G) Hs1).
    destruct (IH _ (Contract_step q l t G) Hs1 Hs2) as [IH1 IH2].
    rewrite run_cons. cbn [fst snd]. rewrite nready_app. split; [lia|].
    intros x X. apply in_app_or in X as [X|X]; [eapply waiting_not_ready; eauto|eapply IH2; eauto].
Qed.

(** number of claims in a state: events in the heap, kept registrations, the stream being served ([serving]: checked
    out or polled with an item; not one found closed, which is dropped) *)
Definition nclaims (q : fq) : nat :=
  Nat.add (Nat.add (length (f_heap q)) (rcount (fun _ => true) (f_srcs q))) (serving q).

Lemma rcount_le : forall f l, (rcount f l <= rcount (fun _ => true) l)%nat.
Proof.
  intros. apply count_le. intros [k s]. cbn [snd]. unfold regf. destruct (s_reg s); auto.
Qed.

Lemma ahead_lt_nclaims : forall p i q, In (p, i) (f_heap q) -> (ahead_count p i q + 1 <= nclaims q)%nat.
Proof.
  intros p i q Hin. unfold ahead_count, nclaims.
  pose proof (rcount_le (ahead p i) (f_srcs q)).
  pose proof (count_split (ahead p i) (f_heap q)).
  assert (E : negb (ahead p i (p, i)) = true).
  { unfold ahead. cbn [snd]. rewrite N.eqb_refl, andb_false_r. auto. }
  pose proof (count_In_pos (fun e => negb (ahead p i e)) _ _ Hin E). lia.
Qed.

(** The fairness bound.  Contract: consuming wakes only, every key inserted at most once (over the whole
    execution [ls0 ++ ls]).  From a state where stream [i] has the event [(p, i)] in the heap, as long as
    that event stays in the heap (stream [i] is not checked out), the number of deliveries [EReady j _]
    (all of them for [j <> i]) is bounded by the number of claims ahead of [(p, i)] — events or kept
    registrations of priority [<= p] for another key, plus the stream being served — which is itself
    at most the number of claims minus one. *)
Theorem fq_fairness_bound : forall b ls0 ls q q' es es0 p i,
  run (fq0 b) ls0 = (q, es0) -> run q ls = (q', es) ->
  (forall k c, In (LWake k c) (ls0 ++ ls) -> c = true) -> NoDup (insert_keys (ls0 ++ ls)) ->
  In (p, i) (f_heap q) -> stays p i q ls ->
  (nready es + ahead_count p i q' <= ahead_count p i q)%nat /\
  (nready es <= nclaims q - 1)%nat /\
  (forall x, ~ In (EReady i x) es).
Proof.
  intros b ls0 ls q q' es es0 p i H0 H1 Hw Hn Hin Hs.
  destruct (fairness_gen p i ls q (Contract_reached b ls0 ls q es0 H0 Hw Hn) Hin Hs) as [HA HC]. rewrite H1 in HA, HC.
  pose proof (ahead_lt_nclaims p i q Hin). cbn [fst snd] in *. split; [auto|split; [lia|auto]].
Qed.

Definition has_reg (s : src) : bool := regf (fun _ => true) s.
Definition claim_keys (q : fq) : list N :=
  map snd (f_heap q) ++ map fst (filter (fun ks => has_reg (snd ks)) (f_srcs q)) ++
  match f_pc q with Out ev => [snd ev] | Polled ev (QSome _) => [snd ev] | _ => [] end.

Lemma claim_keys_length : forall q, length (claim_keys q) = nclaims q.
Proof.
  intros. unfold claim_keys, nclaims, rcount, count, serving, has_reg.
  rewrite !app_length, !map_length.
  destruct (f_pc q) as [| |ev|ev []]; cbn [length]; lia.
Qed.

Lemma put_src_keys_In : forall k s l x, In x (map fst (put_src k s l)) -> x = k \/ In x (map fst l).
Proof.
  induction l as [|[k' s'] t IH]; intros x; cbn [put_src map fst In].
  - intuition.
  - destruct (N.eqb_spec k' k); cbn [map fst In].
    + intuition.
    + intros [H|H]; auto. apply IH in H. intuition.
Qed.

Lemma put_src_keys_NoDup : forall k s l, NoDup (map fst l) -> NoDup (map fst (put_src k s l)).
Proof.
  induction l as [|[k' s'] t IH]; intros H; cbn [put_src map fst].
  - constructor; auto; constructor.
  - inversion H; subst. destruct (N.eqb_spec k' k) as [->|Hne]; cbn [map fst].
    + constructor; auto.
    + constructor; auto. intros X. apply put_src_keys_In in X. destruct X as [->|X]; auto.
Qed.

Lemma srcs_NoDup_reachable : forall q, reachable q -> NoDup (map fst (f_srcs q)).
Proof.
  apply (reachable_invariant (fun q => NoDup (map fst (f_srcs q)))); [constructor|].
  intros q l H. destruct (step_spec q l); proj; auto using put_src_keys_NoDup.
  - destruct c; auto using put_src_keys_NoDup.
  - destruct (get_src k (f_srcs q)); auto using put_src_keys_NoDup.
Qed.

Lemma count_heap_keys : forall k (h : list (N * N)),
  count_occ N.eq_dec (map snd h) k = count (fun e => snd e =? k) h.
Proof.
  intros k. induction h as [|x t IH]; auto.
  change (map snd (x :: t)) with ([snd x] ++ map snd t). rewrite count_occ_app, count_occ_one, IH, count_cons. auto.
Qed.

Lemma count_reg_keys : forall k l, NoDup (map fst l) ->
  (count_occ N.eq_dec (map fst (filter (fun ks => has_reg (snd ks)) l)) k <= regn (s_reg (src_of l k)))%nat.
Proof.
  intros k. induction l as [|[k' s'] t IH]; intros H; [cbn; lia|].
  inversion H as [|? ? Hk' Ht]; subst. specialize (IH Ht).
  unfold src_of in *. cbn [filter get_src snd]. destruct (N.eqb_spec k' k) as [->|Hne].
  - assert (Z : count_occ N.eq_dec (map fst (filter (fun ks => has_reg (snd ks)) t)) k = 0%nat).
    { apply count_occ_not_In. intros X. apply Hk'. eapply incl_map; [apply incl_filter|exact X]. }
    unfold has_reg, regf in *. destruct (s_reg s'); cbn [map count_occ fst regn]; [|lia].
    destruct (N.eq_dec k k); [lia|congruence].
  - destruct (has_reg s'); cbn [map count_occ fst]; auto.
    destruct (N.eq_dec k' k); [congruence|auto].
Qed.

Lemma count_claim_keys : forall q k, NoDup (map fst (f_srcs q)) ->
  (count_occ N.eq_dec (claim_keys q) k <= claims q k)%nat.
Proof.
  intros q k H. rewrite claims_eq. unfold claim_keys. rewrite !count_occ_app, count_heap_keys.
  pose proof (count_reg_keys k (f_srcs q) H).
  assert ((count_occ N.eq_dec match f_pc q with Out ev => [snd ev] | Polled ev (QSome _) => [snd ev] | _ => [] end k
           <= polc (f_pc q) k)%nat).
  { destruct (f_pc q) as [| |ev|ev []]; cbn [polc]; rewrite ?count_occ_one; cbn [count_occ]; lia. }
  lia.
Qed.

Lemma Contract_keys_distinct : forall q ls, Contract q ls -> NoDup (claim_keys q).
Proof.
  intros q ls G. apply (NoDup_count_occ N.eq_dec). intros k.
  pose proof (Contract_one_claim q ls k G). destruct G as (R & _).
  pose proof (count_claim_keys q k (srcs_NoDup_reachable q R)). lia.
Qed.

Print Assumptions fq_exactly_once_in_order.
Print Assumptions fq_claim_invariant.
Print Assumptions fq_parked_invariant.
Print Assumptions yield_returns_pending.
Print Assumptions wake_during_poll_returns_pending.
Print Assumptions fq_yield_is_woken.
Print Assumptions fq_yield_event_queued.
Print Assumptions claims_v1_counterexample.
Print Assumptions claims_v1_counterexample_wake.
Print Assumptions fq_parked_is_idle.
Print Assumptions fq_no_stream_lost.
Print Assumptions poll_returns_idle_counterexample.
Print Assumptions poll_returns_idle_noStart.
Print Assumptions poll_returns_idle_nil.
Print Assumptions poll_returns_idle_env.
Print Assumptions claims_v0_counterexample.
Print Assumptions fq_prio_bound.
Print Assumptions fq_fairness_bound.
