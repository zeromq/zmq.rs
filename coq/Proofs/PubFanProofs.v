(** Theorems about the PUB / XPUB fan-out under per-subscriber back-pressure (Model/PubFan.v). *)
From ZV Require Import Model.Codec Model.TrySend Model.PubFan Proofs.BytesProofs Proofs.TrySendProofs.
From ZV Require Proofs.PubSubProofs.
From Coq Require DecimalNat.
Local Open Scope N_scope.

Inductive subseq {A : Type} : list A -> list A -> Prop :=
| sub_nil : subseq [] []
| sub_skip x l1 l2 : subseq l1 l2 -> subseq l1 (x :: l2)
| sub_take x l1 l2 : subseq l1 l2 -> subseq (x :: l1) (x :: l2).

Definition published (ops : list fop) : list World.msg :=
  flat_map (fun o => match o with FPublish m => [m] | _ => [] end) ops.

Definition concerns (k : N) (o : fop) : bool :=
  match o with
  | FAttach _ => false
  | FSub j _ | FMode j _ | FPlan j _ | FWire j => j =? k
  | FPublish _ => true
  end.

(** the messages the send loop offers to subscriber k: it was in the table and a subscription matched at that moment *)
Fixpoint offered (k : N) (u : subscriber) (ops : list fop) : list World.msg :=
  match ops with
  | [] => []
  | o :: rest =>
    (match o with
     | FPublish (first :: more) => if u_live u && World.matches (u_subs u) first then [first :: more] else []
     | _ => []
     end) ++ offered k (solo_step k u o) rest
  end.

Definition stream (u : subscriber) : bytes := k_written (u_sink u) ++ k_buf (u_sink u).

Lemma subseq_app_l {A} (p a l : list A) : subseq a l -> subseq a (p ++ l).
Proof. intros H. induction p as [|x p IH]; cbn [app]; [exact H|]. apply sub_skip. exact IH. Qed.

Lemma published_cons o rest :
  published (o :: rest) = (match o with FPublish m => [m] | _ => [] end) ++ published rest.
Proof. reflexivity. Qed.

Lemma offer_cases u m : offer u m = u \/
  exists first more r s l, m = first :: more /\ u_live u && World.matches (u_subs u) first = true /\
    try_send (u_sink u) (encode_frames m) = (r, s) /\ (r = TsOk -> l = u_live u) /\
    offer u m = {| u_id := u_id u; u_subs := u_subs u; u_sink := s; u_live := l; u_seen := u_seen u |}.
Proof.
  unfold offer. destruct m as [|first more]; [left; reflexivity|].
  destruct (u_live u && World.matches (u_subs u) first) eqn:E; [right|left; reflexivity].
  destruct (try_send (u_sink u) (encode_frames (first :: more))) as [r s]. exists first, more, r, s.
  destruct r as [| |e|]; [| |destruct (e =? broken_pipe)|]; eexists;
    (split; [reflexivity|]); (split; [exact E|]); (split; [reflexivity|]); (split; [|reflexivity]);
    (reflexivity || discriminate).
Qed.

Lemma offer_keeps u m : u_id (offer u m) = u_id u /\ u_subs (offer u m) = u_subs u.
Proof. destruct (offer_cases u m) as [->|(first & more & r & s & l & _ & _ & _ & _ & ->)]; split; reflexivity. Qed.

Lemma id_on_sub m u : u_id (on_sub m u) = u_id u.
Proof. unfold on_sub. destruct (u_live u); reflexivity. Qed.

Lemma get_id k us u : get k us = Some u -> u_id u = k.
Proof.
  induction us as [|x t IH]; cbn [get]; [discriminate|].
  destruct (N.eqb_spec (u_id x) k) as [E|E]; [intros H; injection H as <-; exact E|exact IH].
Qed.

Lemma get_upd k j f us : (forall u, u_id (f u) = u_id u) ->
  get k (upd j f us) = if j =? k then option_map f (get k us) else get k us.
Proof.
  intros Hf. induction us as [|x t IH]; cbn [upd get]; [destruct (j =? k); reflexivity|].
  destruct (N.eqb_spec (u_id x) j) as [E|E]; cbn [get].
  - rewrite Hf, E. destruct (j =? k); reflexivity.
  - rewrite IH. destruct (N.eqb_spec (u_id x) k) as [E2|_]; [|reflexivity].
    destruct (N.eqb_spec j k); [congruence|reflexivity].
Qed.

Lemma get_upd_same k f us : (forall u, u_id (f u) = u_id u) ->
  get k (upd k f us) = option_map f (get k us).
Proof. intros Hf. rewrite get_upd, N.eqb_refl by exact Hf. reflexivity. Qed.

Lemma get_upd_other k j f us : (forall u, u_id (f u) = u_id u) -> j <> k ->
  get k (upd j f us) = get k us.
Proof. intros Hf Hjk. rewrite get_upd by exact Hf. destruct (N.eqb_spec j k); [contradiction|reflexivity]. Qed.

Lemma get_publish k us m : get k (publish us m) = option_map (fun u => offer u m) (get k us).
Proof.
  unfold publish. induction us as [|x t IH]; [reflexivity|]. cbn [map get].
  rewrite (proj1 (offer_keeps x m)). destruct (u_id x =? k); [reflexivity|exact IH].
Qed.

Lemma get_app k us vs : get k (us ++ vs) = match get k us with Some u => Some u | None => get k vs end.
Proof.
  induction us as [|y t IH]; cbn [get app]; [reflexivity|]. destruct (u_id y =? k); [reflexivity|exact IH].
Qed.

Lemma fstep_get us o k u : get k us = Some u -> get k (snd (fstep us o)) = Some (solo_step k u o).
Proof.
  intros H.
  assert (U : forall j f, (forall v, u_id (f v) = u_id v) -> get k (upd j f us) = Some (if j =? k then f u else u)).
  { intros j f Hf. rewrite get_upd, H by exact Hf. destruct (j =? k); reflexivity. }
  destruct o as [j|j m|j a|j l|m|j]; cbn [fstep snd solo_step].
  - destruct (get j us); [exact H|]. rewrite get_app, H. reflexivity.
  - apply U, id_on_sub.
  - apply U. reflexivity.
  - apply U. reflexivity.
  - rewrite get_publish, H. reflexivity.
  - destruct (get j us) as [uj|] eqn:E; cbn [snd]; [apply U; reflexivity|].
    destruct (N.eqb_spec j k) as [->|N]; [congruence|exact H].
Qed.

Lemma snd_frun_cons us o rest : snd (frun us (o :: rest)) = snd (frun (snd (fstep us o)) rest).
Proof.
  cbn [frun]. destruct (fstep us o) as [b us1]. cbn [snd]. destruct (frun us1 rest). reflexivity.
Qed.

Lemma solo_cons k u o rest : solo k u (o :: rest) = solo k (solo_step k u o) rest.
Proof. reflexivity. Qed.

Lemma solo_app k u a b : solo k u (a ++ b) = solo k (solo k u a) b.
Proof. apply fold_left_app. Qed.

Theorem fan_isolation : forall ops us k u, get k us = Some u ->
  get k (snd (frun us ops)) = Some (solo k u ops).
Proof.
  induction ops as [|o rest IH]; intros us k u H; [exact H|].
  rewrite snd_frun_cons, solo_cons. apply IH. apply fstep_get. exact H.
Qed.

Theorem fan_isolation_fresh : forall ops us k, get k us = None ->
  get k (snd (frun us (FAttach k :: ops))) = Some (solo k (subscriber0 k) ops).
Proof.
  intros ops us k H. rewrite snd_frun_cons. apply fan_isolation.
  cbn [fstep snd]. rewrite H, get_app, H. cbn [get subscriber0 u_id]. rewrite N.eqb_refl. reflexivity.
Qed.

Lemma solo_step_unconcerned k u o : concerns k o = false -> solo_step k u o = u.
Proof.
  destruct o as [j|j m|j a|j l|m|j]; cbn [concerns solo_step]; intros H; try rewrite H; try reflexivity.
  discriminate.
Qed.

Theorem solo_ignores_others : forall ops k u, solo k u ops = solo k u (filter (concerns k) ops).
Proof.
  induction ops as [|o rest IH]; intros k u; [reflexivity|]. cbn [filter].
  destruct (concerns k o) eqn:E; rewrite !solo_cons.
  - apply IH.
  - rewrite solo_step_unconcerned by exact E. apply IH.
Qed.

Lemma solo_step_cases k u o : (exists m, o = FPublish m) \/
  (k_written (u_sink (solo_step k u o)) = k_written (u_sink u) /\ k_buf (u_sink (solo_step k u o)) = k_buf (u_sink u) /\
   u_live (solo_step k u o) = u_live u).
Proof.
  destruct o as [j|j m|j a|j l|m|j]; cbn [solo_step]; [right; auto| | | |left; exists m; reflexivity|];
    right; destruct (j =? k); auto.
  unfold on_sub. destruct (u_live u) eqn:E; cbn [u_with_subs u_sink u_live]; auto.
Qed.

Lemma solo_inv k (P : subscriber -> Prop) ops :
  (forall u o, In o ops -> P u -> P (solo_step k u o)) -> forall u, P u -> P (solo k u ops).
Proof.
  induction ops as [|o rest IH]; intros H u Hu; [exact Hu|]. rewrite solo_cons.
  apply IH; [intros u' o' Hin; apply H; right; exact Hin|]. apply H; [left; reflexivity|exact Hu].
Qed.

Lemma offer_stream u m :
  stream (offer u m) = stream u \/
  exists first more s, m = first :: more /\ u_live u && World.matches (u_subs u) first = true /\
    try_send (u_sink u) (encode_frames m) = (TsOk, s) /\ stream (offer u m) = stream u ++ encode_frames m.
Proof.
  destruct (offer_cases u m) as [->|(first & more & r & s & l & Em & Hc & T & _ & ->)]; [left; reflexivity|].
  pose proof (try_send_stream _ _ _ _ T) as S. unfold stream. cbn [u_sink]. rewrite S.
  destruct r; [right; exists first, more, s; auto| | |]; left; apply app_nil_r.
Qed.

Lemma solo_step_stream k u o : stream (solo_step k u o) = stream u \/
  exists first more, o = FPublish (first :: more) /\ u_live u && World.matches (u_subs u) first = true /\
    stream (solo_step k u o) = stream u ++ encode_frames (first :: more).
Proof.
  destruct (solo_step_cases k u o) as [(m & ->)|(W & B & _)]; [|left; unfold stream; rewrite W, B; reflexivity].
  cbn [solo_step]. destruct (offer_stream u m) as [E|(first & more & s & -> & Hc & _ & E)]; [left; exact E|].
  right. exists first, more. auto.
Qed.

Theorem fan_stream_subsequence : forall ops k u, exists acc,
  subseq acc (offered k u ops) /\
  stream (solo k u ops) = stream u ++ concat (map encode_frames acc).
Proof.
  induction ops as [|o rest IH]; intros k u.
  - exists []. split; [constructor|]. cbn [solo fold_left map concat]. rewrite app_nil_r. reflexivity.
  - rewrite solo_cons. cbn [offered]. destruct (IH k (solo_step k u o)) as (acc & Hs & He).
    destruct (solo_step_stream k u o) as [E|(first & more & -> & Hc & E)].
    + exists acc. split; [apply subseq_app_l; exact Hs|]. rewrite He, E. reflexivity.
    + rewrite Hc. exists ((first :: more) :: acc). split; [apply sub_take; exact Hs|].
      rewrite He, E. cbn [map concat]. rewrite app_assoc. reflexivity.
Qed.

Lemma subs_solo_step k u o : (forall m, o <> FSub k m) -> u_subs (solo_step k u o) = u_subs u.
Proof.
  intros H. destruct o as [j|j m|j a|j l|m|j]; cbn [solo_step]; try reflexivity.
  - destruct (N.eqb_spec j k) as [->|N]; [exfalso; exact (H m eq_refl)|reflexivity].
  - destruct (j =? k); reflexivity.
  - destruct (j =? k); reflexivity.
  - apply offer_keeps.
  - destruct (j =? k); reflexivity.
Qed.

Theorem offered_sub_matching : forall ops k u, (forall m, ~ In (FSub k m) ops) ->
  subseq (offered k u ops) (matching (u_subs u) (published ops)).
Proof.
  induction ops as [|o rest IH]; intros k u H; [constructor|].
  assert (Hrest : forall m, ~ In (FSub k m) rest) by (intros m Hin; exact (H m (or_intror Hin))).
  assert (Ho : forall m, o <> FSub k m) by (intros m E; exact (H m (or_introl E))).
  pose proof (IH k (solo_step k u o) Hrest) as IH'. rewrite (subs_solo_step k u o Ho) in IH'.
  cbn [offered]. rewrite published_cons.
  destruct o as [j|j m|j a|j l|m|j]; cbn [app]; try exact IH'.
  destruct m as [|first more]; cbn [app matching filter]; [exact IH'|].
  destruct (World.matches (u_subs u) first); destruct (u_live u); cbn [andb app];
    [apply sub_take|apply sub_skip| |]; exact IH'.
Qed.

Lemma offer_bounded u m M : lenN (encode_frames m) <= M ->
  lenN (k_buf (u_sink u)) < Gen.hwm + M -> lenN (k_buf (u_sink (offer u m))) < Gen.hwm + M.
Proof.
  intros Hm Hb. destruct (offer_cases u m) as [->|(first & more & r & s & l & _ & _ & T & _ & ->)]; [exact Hb|].
  exact (try_send_bounded _ _ _ _ M T Hm Hb).
Qed.

Theorem fan_bounded : forall ops k u M,
  (forall m, In (FPublish m) ops -> lenN (encode_frames m) <= M) ->
  lenN (k_buf (u_sink u)) < Gen.hwm + M ->
  lenN (k_buf (u_sink (solo k u ops))) < Gen.hwm + M.
Proof.
  intros ops k u M H. apply (solo_inv k (fun u' => lenN (k_buf (u_sink u')) < Gen.hwm + M)). intros u' o Hin Hb.
  destruct (solo_step_cases k u' o) as [(m & ->)|(_ & B & _)]; [|rewrite B; exact Hb].
  apply offer_bounded; [apply H; exact Hin|exact Hb].
Qed.

Theorem fan_accepting_misses_none : forall ops k u,
  u_live u = true -> k_tr (u_sink u) = accepting -> k_buf (u_sink u) = [] ->
  (forall o, In o ops -> match o with FSub j _ | FMode j _ | FPlan j _ => j <> k | _ => True end) ->
  (forall m, In (FPublish m) ops -> lenN (encode_frames m) < 2 ^ 63) ->
  let u' := solo k u ops in
  k_written (u_sink u') = k_written (u_sink u) ++ concat (map encode_frames (matching (u_subs u) (published ops))) /\
  k_buf (u_sink u') = [] /\ u_live u' = true.
Proof.
  induction ops as [|o rest IH]; intros k u Hl Ht Hb Hc Hm; cbv zeta in *.
  - cbn [solo fold_left published flat_map matching filter map concat]. rewrite app_nil_r. auto.
  - assert (Hc' : forall o, In o rest -> match o with FSub j _ | FMode j _ | FPlan j _ => j <> k | _ => True end)
      by (intros o' Hin; apply Hc; right; exact Hin).
    assert (Hm' : forall m, In (FPublish m) rest -> lenN (encode_frames m) < 2 ^ 63)
      by (intros m' Hin; apply Hm; right; exact Hin).
    pose proof (Hc o (or_introl eq_refl)) as Ho.
    rewrite solo_cons, published_cons.
    destruct o as [j|j m|j a|j l|m|j]; cbn [solo_step app];
      try (destruct (N.eqb_spec j k) as [E|_]; [contradiction|]); try (apply IH; assumption).
    + destruct m as [|first more]; cbn [offer matching filter]; [apply IH; assumption|].
      unfold offer. rewrite Hl. cbn [andb].
      destruct (World.matches (u_subs u) first) eqn:Hma; [|apply IH; assumption].
      destruct (accepting_misses_none (u_sink u) (encode_frames (first :: more)) Ht Hb
                  (Hm _ (or_introl eq_refl))) as (s' & T & B' & T' & W').
      rewrite T. destruct (IH k (u_with_sink u s') Hl T' B' Hc' Hm') as (I1 & I2 & I3).
      split; [|split; assumption].
      rewrite I1. cbn [u_with_sink u_sink u_subs map concat]. rewrite W', <- app_assoc. reflexivity.
    + destruct (j =? k); [|apply IH; assumption].
      exact (IH k (u_with_seen u (length (k_written (u_sink u)))) Hl Ht Hb Hc' Hm').
Qed.

Theorem fan_written_grows : forall ops k u, exists ext,
  k_written (u_sink (solo k u ops)) = k_written (u_sink u) ++ ext.
Proof.
  intros ops k u. apply (solo_inv k (fun u' => exists ext, k_written (u_sink u') = k_written (u_sink u) ++ ext)).
  - intros u' o _ (e1 & H1). destruct (solo_step_cases k u' o) as [(m & ->)|(W & _)]; [|exists e1; rewrite W; exact H1].
    cbn [solo_step]. destruct (offer_cases u' m) as [->|(first & more & r & s & l & _ & _ & T & _ & ->)]; [exists e1; exact H1|].
    destruct (try_send_drains _ _ _ _ T) as (e2 & H2 & _). cbn [start_send k_written u_sink] in *.
    exists (e1 ++ e2). rewrite H2, H1, app_assoc. reflexivity.
  - exists []. rewrite app_nil_r. reflexivity.
Qed.

Theorem fan_dead_gets_nothing : forall ops k u, u_live u = false ->
  stream (solo k u ops) = stream u /\ u_live (solo k u ops) = false.
Proof.
  intros ops k u H. apply (solo_inv k (fun u' => stream u' = stream u /\ u_live u' = false)); [|split; [reflexivity|exact H]].
  intros u' o _ [S L]. destruct (solo_step_cases k u' o) as [(m & ->)|(W & B & L')].
  - cbn [solo_step]. destruct (offer_cases u' m) as [->|(first & more & r & s & l & _ & Hc & _)]; [split; assumption|].
    rewrite L in Hc. discriminate.
  - unfold stream in *. rewrite W, B, L'. split; assumption.
Qed.

Theorem fan_refines_world_publish : forall (w : World.world) us m k c u,
  NoDup (World.w_peers w) -> In k (World.w_peers w) ->
  World.get_conn k (World.w_conns w) = Some c -> get k us = Some u ->
  u_live u = true -> u_subs u = World.c_subs c ->
  k_tr (u_sink u) = accepting -> k_buf (u_sink u) = [] -> lenN (encode_frames m) < 2 ^ 63 ->
  exists c' u' delta,
    World.get_conn k (World.w_conns (World.publish w m)) = Some c' /\
    get k (publish us m) = Some u' /\
    World.c_wire c' = World.c_wire c ++ delta /\
    k_written (u_sink u') = k_written (u_sink u) ++ delta /\
    k_buf (u_sink u') = [] /\ k_tr (u_sink u') = accepting /\ u_live u' = true /\
    World.c_subs c' = World.c_subs c /\ u_subs u' = u_subs u.
Proof.
  intros w us m k c u Hnd Hin Hg Hu Hl Hs Ht Hb Hlen.
  destruct m as [|first rest].
  - exists c, u, []. cbn [World.publish]. rewrite get_publish, Hu. cbn [option_map offer].
    rewrite !app_nil_r. repeat split; auto.
  - destruct (PubSubProofs.publish_exactly_once w first rest Hnd k c Hg) as (c' & G' & S' & W').
    assert (Hmem : World.memN k (World.w_peers w) = true) by (apply WorldBasics.memN_In; exact Hin).
    rewrite Hmem in W'. cbn [andb] in W'.
    rewrite get_publish, Hu. cbn [option_map]. unfold offer. rewrite Hl, Hs. cbn [andb].
    destruct (World.matches (World.c_subs c) first).
    + destruct (accepting_misses_none (u_sink u) (encode_frames (first :: rest)) Ht Hb Hlen)
        as (s' & T & B' & T' & Wr').
      rewrite T. exists c', (u_with_sink u s'), (encode_frames (first :: rest)).
      cbn [u_with_sink u_sink u_live u_subs]. repeat split; auto.
    + exists c', u, []. rewrite !app_nil_r. rewrite app_nil_r in W'. repeat split; auto.
Qed.

(** A subscriber whose connection takes nothing (every poll_write is answered Pending) has whole messages put into
    its buffer as long as the buffer is below the high-water mark, and dropped afterwards; nothing is written. *)
Definition stalled : transport := {| t_plan := []; t_dflt := WPending |}.

Lemma offer_stalled u first more :
  u_live u = true -> World.matches (u_subs u) first = true -> k_tr (u_sink u) = stalled ->
  offer u (first :: more) = u_with_sink u
    {| k_buf := if lenN (k_buf (u_sink u)) <? Gen.hwm then k_buf (u_sink u) ++ encode_frames (first :: more)
                else k_buf (u_sink u);
       k_written := k_written (u_sink u); k_tr := stalled |}.
Proof.
  intros Hl Hm Ht. unfold offer, try_send. rewrite Hl, Hm. cbn [andb poll_ready].
  destruct (lenN (k_buf (u_sink u)) <? Gen.hwm); rewrite ?Ht; [|reflexivity].
  cbn [poll_flush k_buf k_written k_tr].
  destruct (k_buf (u_sink u) ++ encode_frames (first :: more)); reflexivity.
Qed.

Fixpoint fill (b : N) (ls : list N) : N :=
  match ls with [] => b | l :: t => fill (if b <? Gen.hwm then b + l else b) t end.

Lemma fan_stalled ms : forall k u, u_live u = true -> k_tr (u_sink u) = stalled ->
  Forall (fun m => match m with [] => False | first :: _ => World.matches (u_subs u) first = true end) ms ->
  k_written (u_sink (solo k u (map FPublish ms))) = k_written (u_sink u) /\
  lenN (k_buf (u_sink (solo k u (map FPublish ms)))) =
    fill (lenN (k_buf (u_sink u))) (map (fun m => lenN (encode_frames m)) ms).
Proof.
  induction ms as [|m ms IH]; intros k u Hl Ht Hm; [split; reflexivity|].
  inversion Hm as [|? ? Hm1 Hm2]; subst. destruct m as [|first more]; [contradiction|].
  cbn [map fill]. rewrite solo_cons. cbn [solo_step]. rewrite (offer_stalled u first more Hl Hm1 Ht).
  set (u1 := u_with_sink u _). destruct (IH k u1 Hl eq_refl Hm2) as [W B].
  rewrite W, B. cbn [u_with_sink u_sink k_written k_buf]. split; [reflexivity|]. f_equal.
  destruct (lenN (k_buf (u_sink u)) <? Gen.hwm); [apply lenN_app|reflexivity].
Qed.

(** non-vacuity: a stalled subscriber beside an accepting one; only the lengths of the frames matter *)
Lemma fan_example_gen f : lenN f = 70000 ->
  let pubs := [[f]; [f]; [f]; [[66]]] in
  let us := snd (frun [] ([FAttach 1; FAttach 2; FSub 1 [[1]]; FSub 2 [[1]]; FMode 1 WPending] ++ map FPublish pubs)) in
  option_map (fun u => (lenN (k_written (u_sink u)), lenN (k_buf (u_sink u)))) (get 1 us) = Some (0, 140018) /\
  option_map (fun u => (lenN (k_written (u_sink u)), lenN (k_buf (u_sink u)))) (get 2 us) = Some (210030, 0).
Proof.
  intros Hf pubs us.
  assert (Hbig : lenN (encode_frames [f]) = 70009)
    by (cbn [encode_frames]; unfold encode_frame; rewrite lenN_app, Hf; reflexivity).
  set (u1 := solo 1 (subscriber0 1) [FAttach 2; FSub 1 [[1]]; FSub 2 [[1]]; FMode 1 WPending]).
  set (u2 := solo 2 (subscriber0 2) [FSub 1 [[1]]; FSub 2 [[1]]; FMode 1 WPending]).
  assert (E1 : get 1 us = Some (solo 1 u1 (map FPublish pubs))).
  { unfold u1. rewrite <- solo_app. exact (fan_isolation_fresh _ [] 1 eq_refl). }
  assert (E2 : get 2 us = Some (solo 2 u2 (map FPublish pubs))).
  { unfold u2. rewrite <- solo_app. unfold us. cbn [app]. rewrite snd_frun_cons.
    exact (fan_isolation_fresh _ [subscriber0 1] 2 eq_refl). }
  rewrite E1, E2. cbn [option_map]. split; f_equal.
  - destruct (fan_stalled pubs 1 u1) as [W B]; [reflexivity|reflexivity|repeat constructor|].
    rewrite W, B. unfold pubs. cbn [map]. rewrite Hbig. reflexivity.
  - destruct (fan_accepting_misses_none (map FPublish pubs) 2 u2) as (W & B & _); try reflexivity.
    + intros o Ho. apply in_map_iff in Ho as (m & <- & _). exact I.
    + intros m Hm. apply in_map_iff in Hm as (m' & E & Hin). inversion E; subst m'.
      destruct Hin as [<-|[<-|[<-|[<-|[]]]]]; rewrite ?Hbig; reflexivity.
    + rewrite W, B. change (matching (u_subs u2) (published (map FPublish pubs))) with pubs.
      unfold pubs. cbn [map concat]. rewrite !lenN_app, Hbig. reflexivity.
Qed.

Example fan_example :
  let big := [repeat 65 70000] in
  let ops := [FAttach 1; FAttach 2; FSub 1 [[1]]; FSub 2 [[1]]; FMode 1 WPending;
              FPublish big; FPublish big; FPublish big; FPublish [[66]]] in
  let us := snd (frun [] ops) in
  option_map (fun u => (lenN (k_written (u_sink u)), lenN (k_buf (u_sink u)))) (get 1 us) = Some (0, 140018) /\
  option_map (fun u => (lenN (k_written (u_sink u)), lenN (k_buf (u_sink u)))) (get 2 us) = Some (210030, 0).
Proof.
  refine (fan_example_gen (repeat 65 70000) _). unfold lenN. rewrite repeat_length.
  (* a large numeral of nat is kept in decimal: convert it digit by digit, not through 70000 successors *)
  unfold Nat.of_num_uint. rewrite DecimalNat.Unsigned.of_uint_alt.
  cbn [Decimal.rev Decimal.revapp DecimalNat.Unsigned.of_lu]. rewrite !Nat2N.inj_mul, !Nat2N.inj_add. reflexivity.
Qed.

Print Assumptions fan_isolation.
Print Assumptions fan_isolation_fresh.
Print Assumptions solo_ignores_others.
Print Assumptions fan_stream_subsequence.
Print Assumptions offered_sub_matching.
Print Assumptions fan_bounded.
Print Assumptions fan_accepting_misses_none.
Print Assumptions fan_written_grows.
Print Assumptions fan_dead_gets_nothing.
Print Assumptions fan_refines_world_publish.
Print Assumptions fan_example.
