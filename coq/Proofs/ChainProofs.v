(** C15 (chain) / C08: theorems over Model/Chain.v. *)
From Coq Require Import List Arith NArith Lia Permutation.
From ZV Require Import Base.Bytes Base.Res Model.Codec Model.World Model.Chain Proofs.BytesProofs.
Import ListNotations.
Local Open Scope nat_scope.

(** [Base.Bytes] opens [N_scope], under which [0 < m] with [m : nat] does not typecheck: [nat_scope]
    is opened above, and [N_scope] again around the literals of [cex] and [sample].

    The three theorems about replies ([chain_replies_own'], [chain_nothing_lost'],
    [chain_quiescent_complete']) carry the hypothesis [reply_ok reply]: an application that answers
    with the empty message has its reply dropped by the client's REQ socket, and all three fail
    ([chain_replies_own_false], [chain_nothing_lost_false], [chain_quiescent_complete_false]).
    [chain_quiescent_served_once] needs no such hypothesis. *)

Definition ids_ok (ids : list bytes) : Prop := NoDup ids /\ Forall (fun i => i <> []) ids.
Definition ev_ok (e : cev) : Prop := match e with CReq _ p => p <> [] | _ => True end.

Definition answered (cl : client) : list msg := if cl_out cl then removelast (cl_sent cl) else cl_sent cl.

Lemma nth_error_upd {A} (g : A -> A) : forall l i j,
  nth_error (upd i g l) j = if Nat.eqb j i then option_map g (nth_error l j) else nth_error l j.
Proof.
  induction l as [|a l IH]; intros i j.
  - destruct i; cbn [upd]; destruct j; cbn [nth_error option_map]; destruct (Nat.eqb _ _); reflexivity.
  - destruct i as [|i]; destruct j as [|j]; cbn [upd nth_error option_map Nat.eqb]; try reflexivity.
    apply IH.
Qed.

Lemma nth_error_upd_eq {A} (g : A -> A) l i a :
  nth_error l i = Some a -> nth_error (upd i g l) i = Some (g a).
Proof. intros H. rewrite nth_error_upd, Nat.eqb_refl, H. reflexivity. Qed.

Lemma nth_error_upd_neq {A} (g : A -> A) l i j :
  j <> i -> nth_error (upd i g l) j = nth_error l j.
Proof. intros H. rewrite nth_error_upd. apply Nat.eqb_neq in H. rewrite H. reflexivity. Qed.

Lemma length_upd {A} (g : A -> A) : forall l i, length (upd i g l) = length l.
Proof.
  induction l as [|a l IH]; intros [|i]; cbn [upd length]; try reflexivity.
  rewrite IH. reflexivity.
Qed.

Lemma map_upd_same {A B} (f : A -> B) (g : A -> A) :
  (forall a, f (g a) = f a) -> forall l i, map f (upd i g l) = map f l.
Proof.
  intros Hfg. induction l as [|a l IH]; intros [|i]; cbn [upd map]; try reflexivity.
  - rewrite Hfg. reflexivity.
  - rewrite IH. reflexivity.
Qed.

Lemma nodup_map_index {A B} (f : A -> B) l i j a b :
  NoDup (map f l) -> nth_error l i = Some a -> nth_error l j = Some b -> f a = f b -> i = j.
Proof.
  intros Hnd Hi Hj Hab.
  rewrite NoDup_nth_error in Hnd. apply Hnd.
  - apply nth_error_Some. rewrite (map_nth_error f _ _ Hi). discriminate.
  - rewrite (map_nth_error f _ _ Hi), (map_nth_error f _ _ Hj), Hab. reflexivity.
Qed.

Lemma in_map_index {A B} (f : A -> B) l y :
  In y (map f l) -> exists i a, nth_error l i = Some a /\ f a = y.
Proof.
  intros H. apply in_map_iff in H. destruct H as (a & Ha & Hin).
  apply In_nth_error in Hin. destruct Hin as [i Hi]. exists i, a. split; assumption.
Qed.

Lemma upd_nodup_cases {A B} (k : A -> B) (g : A -> A) l i a (Q : A -> Prop) :
  NoDup (map k l) -> nth_error l i = Some a ->
  Q (g a) -> (forall j b, nth_error l j = Some b -> k a <> k b -> Q b) ->
  forall j b, nth_error (upd i g l) j = Some b -> Q b.
Proof.
  intros Hnd Hi Ha Hoth j b Hj. destruct (Nat.eq_dec j i) as [->|Hji].
  - rewrite (nth_error_upd_eq g l i a Hi) in Hj. injection Hj as <-. exact Ha.
  - rewrite nth_error_upd_neq in Hj by exact Hji.
    apply (Hoth j b Hj). intros E. apply Hji. exact (nodup_map_index k l j i b a Hnd Hj Hi (eq_sym E)).
Qed.

Definition flat {A B} (f : A -> list B) (l : list A) : list B := concat (map f l).

Lemma flat_cons {A B} (f : A -> list B) a l : flat f (a :: l) = f a ++ flat f l.
Proof. reflexivity. Qed.

Lemma flat_nil {A B} (f : A -> list B) : forall l, (forall a, In a l -> f a = []) -> flat f l = [].
Proof.
  induction l as [|a l IH]; intros H; [reflexivity|].
  rewrite flat_cons, (H a (or_introl eq_refl)), IH; [reflexivity|].
  intros b Hb. apply H. right. exact Hb.
Qed.

Lemma flat_nth_head {A B} (P : B -> Prop) (f : A -> list B) x r l i a :
  nth_error l i = Some a -> f a = x :: r -> Forall P (flat f l) -> P x.
Proof.
  intros Hn Hf H. rewrite Forall_forall in H. apply H, in_concat. exists (f a). split.
  - apply in_map. exact (nth_error_In _ _ Hn).
  - rewrite Hf. left. reflexivity.
Qed.

Lemma flat_upd_perm {A B} (f : A -> list B) (g : A -> A) : forall l i a,
  nth_error l i = Some a -> Permutation (f a ++ flat f (upd i g l)) (f (g a) ++ flat f l).
Proof.
  induction l as [|b l IH]; intros [|i] a Hn; try discriminate; cbn [nth_error] in Hn; cbn [upd]; rewrite !flat_cons.
  - inversion Hn; subst. apply Permutation_app_swap_app.
  - rewrite Permutation_app_swap_app, (IH i a Hn). apply Permutation_app_swap_app.
Qed.

Lemma flat_upd_same {A B} (f : A -> list B) (g : A -> A) :
  (forall a, f (g a) = f a) -> forall l i, flat f (upd i g l) = flat f l.
Proof. intros Hfg l i. unfold flat. rewrite map_upd_same by exact Hfg. reflexivity. Qed.

Lemma flat_upd_snoc {A B} (f : A -> list B) (g : A -> A) x l i a :
  nth_error l i = Some a -> f (g a) = f a ++ [x] -> Permutation (flat f (upd i g l)) (x :: flat f l).
Proof.
  intros Hn Hf. apply (Permutation_app_inv_l (f a)).
  rewrite (flat_upd_perm f g l i a Hn), Hf, <- app_assoc. reflexivity.
Qed.

Lemma flat_upd_pop {A B} (f : A -> list B) (g : A -> A) x l i a :
  nth_error l i = Some a -> f a = x :: f (g a) -> Permutation (flat f l) (x :: flat f (upd i g l)).
Proof.
  intros Hn Hf. apply (Permutation_app_inv_l (f (g a))).
  rewrite <- (flat_upd_perm f g l i a Hn), Hf. apply Permutation_middle.
Qed.

Lemma req_unwrap_wrapped r : req_unwrap ([] :: r) = match r with [] => Err EOther | _ => Ok r end.
Proof.
  destruct r as [|x r]; [reflexivity|].
  unfold req_unwrap. change Gen.req_min_frames with 2%N.
  unfold lenN. cbn [length].
  destruct (N.ltb _ _) eqn:Hl; [apply N.ltb_lt in Hl; lia|].
  reflexivity.
Qed.

Lemma req_unwrap_one : req_unwrap [[]] = Err EOther.
Proof. exact (req_unwrap_wrapped []). Qed.

Lemma rep_split_ok (id : bytes) (p : msg) : id <> [] -> p <> [] ->
  rep_split (id :: [] :: p) = Ok ([id; []], p).
Proof.
  intros Hid Hp. unfold rep_split. change Gen.rep_min_frames with 2%N.
  destruct id as [|b id]; [congruence|].
  destruct p as [|x p]; [congruence|].
  unfold lenN. cbn [length find_empty is_nil].
  destruct (N.ltb _ _) eqn:Hl; [apply N.ltb_lt in Hl; lia|].
  destruct (Nat.leb _ _) eqn:Hl2; [apply Nat.leb_le in Hl2; lia|].
  reflexivity.
Qed.

Definition hd_is (id : bytes) (x : msg) : bool :=
  match x with f :: _ => bytes_eqb f id | [] => false end.
Definition cnt (id : bytes) (l : list msg) : nat := length (filter (hd_is id) l).

Lemma hd_is_self id r : hd_is id (id :: r) = true.
Proof. apply bytes_eqb_refl. Qed.

Lemma hd_is_other id id' r : id' <> id -> hd_is id (id' :: r) = false.
Proof.
  intros H. cbn [hd_is]. destruct (bytes_eqb_spec id' id); [contradiction|reflexivity].
Qed.

Lemma cnt_cons id x l : cnt id (x :: l) = (if hd_is id x then 1 else 0) + cnt id l.
Proof. unfold cnt. cbn [filter]. destruct (hd_is id x); reflexivity. Qed.

Lemma cnt_snoc id x l : cnt id (l ++ [x]) = cnt id l + (if hd_is id x then 1 else 0).
Proof. unfold cnt. rewrite filter_app, app_length. cbn [filter]. destruct (hd_is id x); reflexivity. Qed.

Lemma cnt_perm id l l' : Permutation l l' -> cnt id l = cnt id l'.
Proof.
  intros Hp. induction Hp as [|x l l' Hp IH|x y l|l l' l'' Hp1 IH1 Hp2 IH2].
  - reflexivity.
  - rewrite !cnt_cons, IH. reflexivity.
  - rewrite !cnt_cons. lia.
  - congruence.
Qed.

Lemma cnt_zero id (P : msg -> Prop) : forall l, cnt id l = 0 -> Forall (fun x => hd_is id x = true -> P x) l.
Proof.
  induction l as [|x l IH]; intros H; [constructor|].
  rewrite cnt_cons in H. destruct (hd_is id x) eqn:E; [lia|].
  constructor; [intros Ht; congruence|apply IH; lia].
Qed.

Lemma find_client_some : forall l id,
  In id (map cl_id l) ->
  exists j cl, find_client id l = Some j /\ nth_error l j = Some cl /\ cl_id cl = id.
Proof.
  induction l as [|c l IH]; intros id Hin; [destruct Hin|].
  cbn [find_client]. destruct (bytes_eqb_spec (cl_id c) id) as [E|E].
  - exists 0, c. repeat split; assumption.
  - cbn [map] in Hin. destruct Hin as [Hin|Hin]; [contradiction|].
    destruct (IH id Hin) as (j & cl & Hf & Hn & Hid).
    exists (S j), cl. rewrite Hf. repeat split; assumption.
Qed.

Record ch_shape (ids : list bytes) (m : nat) (s : chain) : Prop := {
  sh_ids : map cl_id (ch_clients s) = ids;
  sh_len : length (ch_workers s) = m;
  sh_rr : Forall (fun w => w < m) (ch_rr s);
  sh_ne : 0 < m -> ch_rr s <> []
}.

Ltac chain_cbn :=
  cbn [ch_clients ch_workers ch_rr ch_lost with_clients with_workers lose].

Lemma ch_shape0 ids m : ch_shape ids m (chain0 ids m).
Proof.
  constructor; unfold chain0; chain_cbn.
  - rewrite map_map. cbn [client0 cl_id]. apply map_id.
  - apply repeat_length.
  - apply Forall_forall. intros w Hw. apply in_seq in Hw. lia.
  - intros Hm. destruct m; [lia|]. cbn [seq]. discriminate.
Qed.

(** [cstep] builds its result from three operations, each of which keeps the shape *)
Lemma ch_shape_lose ids m s x : ch_shape ids m s -> ch_shape ids m (lose s x).
Proof. intros [Hid Hlen Hrr Hne]. constructor; assumption. Qed.

Lemma ch_shape_clients ids m s c g :
  (forall a, cl_id (g a) = cl_id a) -> ch_shape ids m s -> ch_shape ids m (with_clients s (upd c g (ch_clients s))).
Proof.
  intros Hg [Hid Hlen Hrr Hne]. constructor; try assumption.
  chain_cbn. rewrite map_upd_same by exact Hg. exact Hid.
Qed.

Lemma ch_shape_workers ids m s w h rr :
  Permutation rr (ch_rr s) -> ch_shape ids m s -> ch_shape ids m (with_workers s (upd w h (ch_workers s)) rr).
Proof.
  intros Hp [Hid Hlen Hrr Hne]. constructor; chain_cbn.
  - exact Hid.
  - rewrite length_upd. exact Hlen.
  - exact (Permutation_Forall (Permutation_sym Hp) Hrr).
  - intros Hm E. rewrite E in Hp. apply Permutation_nil in Hp. exact (Hne Hm Hp).
Qed.

Lemma ch_shape_step reply ids m s e : ch_shape ids m s -> ch_shape ids m (cstep reply s e).
Proof.
  intros Hs.
  assert (Hw : forall w h, ch_shape ids m (with_workers s (upd w h (ch_workers s)) (ch_rr s))).
  { intros w h. apply ch_shape_workers; [reflexivity|exact Hs]. }
  unfold cstep. destruct e as [c p|c|w|w|c].
  - destruct (nth_error (ch_clients s) c) as [cl|]; [|exact Hs].
    destruct (cl_out cl); auto using ch_shape_clients.
  - destruct (nth_error (ch_clients s) c) as [cl|]; [|exact Hs].
    destruct (cl_up cl) as [|x up']; [exact Hs|].
    cbv zeta. destruct (ch_rr _) as [|w rest] eqn:Hr; auto using ch_shape_lose, ch_shape_clients.
    apply ch_shape_workers; auto using ch_shape_clients.
    chain_cbn. rewrite Hr. apply Permutation_sym, Permutation_cons_append.
  - destruct (nth_error (ch_workers s) w) as [wk|]; [|exact Hs].
    destruct (wk_in wk) as [|x in']; [exact Hs|].
    destruct (rep_split x) as [[env data]|er|ps]; auto using ch_shape_lose.
  - destruct (nth_error (ch_workers s) w) as [wk|]; [|exact Hs].
    destruct (wk_out wk) as [|[|id rest] out']; auto using ch_shape_lose.
    cbv zeta. destruct (find_client id _); auto using ch_shape_lose, ch_shape_clients.
  - destruct (nth_error (ch_clients s) c) as [cl|]; [|exact Hs].
    destruct (negb (cl_out cl)); [exact Hs|].
    destruct (cl_down cl) as [|x down']; [exact Hs|].
    destruct (req_unwrap x) as [r|er|ps]; auto using ch_shape_lose, ch_shape_clients.
Qed.

Lemma ch_shape_run reply ids m es : ch_shape ids m (crun reply (chain0 ids m) es).
Proof.
  apply (fold_left_inv _ (ch_shape ids m)); [|apply ch_shape0].
  intros s e _. apply ch_shape_step.
Qed.

Lemma ch_shape_nth_worker ids m s w : ch_shape ids m s -> w < m -> exists wk, nth_error (ch_workers s) w = Some wk.
Proof.
  intros Hs Hw.
  destruct (nth_error (ch_workers s) w) as [wk|] eqn:E; [exists wk; reflexivity|].
  apply nth_error_None in E. rewrite (sh_len _ _ _ Hs) in E. lia.
Qed.

Lemma ch_shape_id_in ids m s c cl : ch_shape ids m s -> nth_error (ch_clients s) c = Some cl -> In (cl_id cl) ids.
Proof.
  intros Hs Hc. rewrite <- (sh_ids _ _ _ Hs). apply in_map. eapply nth_error_In. exact Hc.
Qed.

Definition reply_ok (reply : msg -> msg) : Prop := forall d, d <> [] -> reply d <> [].

Definition cur (cl : client) : msg := last (cl_sent cl) [].
Definition b2n (b : bool) : nat := if b then 1 else 0.

(** Each client has at most one message under way, and that message is determined by where it is:
    the wrapped request in [cl_up], the labelled request among the messages [win] queued towards
    the workers, the labelled reply among those [wout] queued from them, the wrapped reply in
    [cl_down]; or it is among the [lost] ones.  The replies it has got are those to the requests
    before that one. *)
Record cl_inv (reply : msg -> msg) (win wout lost : list msg) (cl : client) : Prop := {
  ci_got : cl_got cl = map reply (answered cl);
  ci_cnt : length (cl_up cl) + length (cl_down cl) + cnt (cl_id cl) win + cnt (cl_id cl) wout + cnt (cl_id cl) lost
           = b2n (cl_out cl);
  ci_cur : cl_out cl = true -> cur cl <> [];
  ci_up : Forall (fun x => x = [] :: cur cl) (cl_up cl);
  ci_down : Forall (fun x => x = [] :: reply (cur cl)) (cl_down cl);
  ci_in : Forall (fun x => hd_is (cl_id cl) x = true -> x = cl_id cl :: [] :: cur cl) win;
  ci_out : Forall (fun x => hd_is (cl_id cl) x = true -> x = cl_id cl :: [] :: reply (cur cl)) wout
}.

(** [cl_inv] with its first field, the only one that depends on what [reply] returns, under a premise *)
Record cl_token (rok : Prop) (reply : msg -> msg) (win wout lost : list msg) (cl : client) : Prop := {
  t_got : rok -> cl_got cl = map reply (answered cl);
  t_cnt : length (cl_up cl) + length (cl_down cl) + cnt (cl_id cl) win + cnt (cl_id cl) wout + cnt (cl_id cl) lost
          = b2n (cl_out cl);
  t_cur : cl_out cl = true -> cur cl <> [];
  t_up : Forall (fun x => x = [] :: cur cl) (cl_up cl);
  t_down : Forall (fun x => x = [] :: reply (cur cl)) (cl_down cl);
  t_in : Forall (fun x => hd_is (cl_id cl) x = true -> x = cl_id cl :: [] :: cur cl) win;
  t_out : Forall (fun x => hd_is (cl_id cl) x = true -> x = cl_id cl :: [] :: reply (cur cl)) wout
}.

Lemma cl_token_perm {rok reply win win' wout wout' lost cl} :
  Permutation win' win -> Permutation wout' wout -> cl_token rok reply win wout lost cl -> cl_token rok reply win' wout' lost cl.
Proof.
  intros Pi Po [Hgot Hcnt Hcur Hup Hdown Hin Hout]. constructor; try assumption.
  - rewrite (cnt_perm _ _ _ Pi), (cnt_perm _ _ _ Po). exact Hcnt.
  - exact (Permutation_Forall (Permutation_sym Pi) Hin).
  - exact (Permutation_Forall (Permutation_sym Po) Hout).
Qed.

Lemma cl_token_lost rok reply win wout lost lost' cl :
  cnt (cl_id cl) lost' = cnt (cl_id cl) lost -> cl_token rok reply win wout lost cl -> cl_token rok reply win wout lost' cl.
Proof.
  intros E [Hgot Hcnt Hcur Hup Hdown Hin Hout]. constructor; try assumption.
  rewrite E. exact Hcnt.
Qed.

Lemma cl_token_in_other rok reply win wout lost cl x : hd_is (cl_id cl) x = false ->
  cl_token rok reply (x :: win) wout lost cl <-> cl_token rok reply win wout lost cl.
Proof.
  intros Hx. split; intros [Hgot Hcnt Hcur Hup Hdown Hin Hout]; constructor; try assumption.
  - rewrite cnt_cons, Hx in Hcnt. exact Hcnt.
  - exact (Forall_inv_tail Hin).
  - rewrite cnt_cons, Hx. exact Hcnt.
  - constructor; [intros Ht; congruence|exact Hin].
Qed.

Lemma cl_token_out_other rok reply win wout lost cl x : hd_is (cl_id cl) x = false ->
  cl_token rok reply win (x :: wout) lost cl <-> cl_token rok reply win wout lost cl.
Proof.
  intros Hx. split; intros [Hgot Hcnt Hcur Hup Hdown Hin Hout]; constructor; try assumption.
  - rewrite cnt_cons, Hx in Hcnt. exact Hcnt.
  - exact (Forall_inv_tail Hout).
  - rewrite cnt_cons, Hx. exact Hcnt.
  - constructor; [intros Ht; congruence|exact Hout].
Qed.

Lemma cl_token_serve rok reply win wout lost cl id p :
  cl_token rok reply ((id :: [] :: p) :: win) wout lost cl -> cl_token rok reply win ((id :: [] :: reply p) :: wout) lost cl.
Proof.
  intros [Hgot Hcnt Hcur Hup Hdown Hin Hout]. constructor; try assumption.
  - rewrite cnt_cons in Hcnt. rewrite cnt_cons. cbn [hd_is] in *. lia.
  - exact (Forall_inv_tail Hin).
  - constructor; [|exact Hout].
    intros Ht. injection (Forall_inv Hin Ht) as -> ->. reflexivity.
Qed.

Lemma cl_inv_iff reply win wout lost cl :
  cl_inv reply win wout lost cl <-> cl_token True reply win wout lost cl.
Proof.
  split.
  - intros [Hgot Hcnt Hcur Hup Hdown Hin Hout]. constructor; try assumption. intros _. exact Hgot.
  - intros [Hgot Hcnt Hcur Hup Hdown Hin Hout]. constructor; try assumption. exact (Hgot I).
Qed.

Lemma cl_inv_in_del reply win wout lost cl x :
  hd_is (cl_id cl) x = false -> cl_inv reply (x :: win) wout lost cl -> cl_inv reply win wout lost cl.
Proof. intros Hx. rewrite !cl_inv_iff, (cl_token_in_other _ _ _ _ _ _ _ Hx). exact (fun H => H). Qed.

Lemma cl_inv_out_add reply win wout lost cl x :
  hd_is (cl_id cl) x = false -> cl_inv reply win wout lost cl -> cl_inv reply win (x :: wout) lost cl.
Proof. intros Hx. rewrite !cl_inv_iff, (cl_token_out_other _ _ _ _ _ _ _ Hx). exact (fun H => H). Qed.

(** Besides the tokens: every queued message is addressed to a client; with a worker present every
    request sent has been served or is on its way to a worker, once; and if [reply] is never empty,
    the clients have their replies and nothing is lost. *)
Record chain_inv (reply : msg -> msg) (ids : list bytes) (m : nat) (s : chain) : Prop := {
  i_shape : ch_shape ids m s;
  i_tok : forall j cl, nth_error (ch_clients s) j = Some cl ->
          cl_token (reply_ok reply) reply (flat wk_in (ch_workers s)) (flat wk_out (ch_workers s)) (ch_lost s) cl;
  i_in : Forall (fun x => exists id p, In id ids /\ p <> [] /\ x = id :: [] :: p) (flat wk_in (ch_workers s));
  i_out : Forall (fun x => exists id r, In id ids /\ x = id :: r) (flat wk_out (ch_workers s));
  i_sent : 0 < m ->
    Permutation (flat wk_served (ch_workers s) ++ map (@skipn bytes 2) (flat wk_in (ch_workers s))
                   ++ map (@tl bytes) (flat cl_up (ch_clients s)))
                (flat cl_sent (ch_clients s));
  i_lost : reply_ok reply -> 0 < m -> ch_lost s = []
}.

Lemma chain_inv0 reply ids m : chain_inv reply ids m (chain0 ids m).
Proof.
  assert (Hw : forall (f : worker -> list msg), f worker0 = [] -> flat f (repeat worker0 m) = []).
  { intros f Hf. apply flat_nil. intros a Ha. apply repeat_spec in Ha. subst a. exact Hf. }
  assert (Hf : forall (f : client -> list msg), (forall id, f (client0 id) = []) -> flat f (map client0 ids) = []).
  { intros f Hf. apply flat_nil. intros a Ha. apply in_map_iff in Ha. destruct Ha as (id & <- & _). apply Hf. }
  constructor; unfold chain0; chain_cbn; rewrite ?Hw by reflexivity.
  - apply ch_shape0.
  - intros j cl Hj. apply nth_error_In, in_map_iff in Hj. destruct Hj as (id & <- & _).
    constructor; try constructor. discriminate.
  - constructor.
  - constructor.
  - intros _. rewrite !Hf by reflexivity. constructor.
  - reflexivity.
Qed.

Ltac client_cbn := cbn [set_client cl_id cl_sent cl_out cl_got cl_up cl_down].

Lemma chain_inv_step reply ids m s e :
  ids_ok ids -> ev_ok e -> chain_inv reply ids m s -> chain_inv reply ids m (cstep reply s e).
Proof.
  intros [Hnd Hids] Hev Hinv.
  pose proof (ch_shape_step reply ids m s e (i_shape _ _ _ _ Hinv)) as Hs'.
  (* the case analysis is done on one copy of [cstep reply s e] *)
  remember (cstep reply s e) as s' eqn:Es.
  pose proof Hinv as [Hsh Htok Hoin Hoout Hsent Hlost]. pose proof Hsh as [Hsid Hlen Hrr Hne].
  rewrite <- Hsid in Hnd. rewrite Forall_forall in Hids.
  unfold cstep in Es. destruct e as [c p|c|w|w|c].
  - (* CReq: a token appears in [cl_up] *)
    destruct (nth_error (ch_clients s) c) as [cl|] eqn:Hc; [|now subst s'].
    destruct (cl_out cl) eqn:Hout; [now subst s'|].
    subst s'. cbn [ev_ok] in Hev.
    set (g := fun cl0 : client => set_client cl0 (cl_sent cl0 ++ [p]) true (cl_got cl0) (cl_up cl0 ++ [req_wrap p]) (cl_down cl0)).
    destruct (Htok c cl Hc) as [Hgot Hcnt _ _ _ _ _].
    rewrite Hout in Hcnt. cbn [b2n] in Hcnt.
    assert (Eup : cl_up cl = []) by (apply length_zero_iff_nil; lia).
    assert (Edown : cl_down cl = []) by (apply length_zero_iff_nil; lia).
    constructor; chain_cbn; try assumption.
    + apply (upd_nodup_cases cl_id g _ c cl _ Hnd Hc); [|intros j b Hj _; exact (Htok j b Hj)].
      constructor; unfold g, cur; client_cbn; rewrite ?last_last, ?Eup, ?Edown.
      * unfold answered in *. client_cbn. rewrite Hout in Hgot. rewrite removelast_last. exact Hgot.
      * cbn [app length b2n]. lia.
      * intros _. exact Hev.
      * repeat constructor.
      * constructor.
      * apply cnt_zero. lia.
      * apply cnt_zero. lia.
    + intros Hm.
      rewrite (flat_upd_snoc cl_up g _ _ c cl Hc eq_refl), (flat_upd_snoc cl_sent g _ _ c cl Hc eq_refl), <- (Hsent Hm).
      cbn [map tl req_wrap]. rewrite !app_assoc. symmetry. apply Permutation_middle.
  - (* CFront: the token goes from [cl_up] to a worker's [wk_in] *)
    destruct (nth_error (ch_clients s) c) as [cl|] eqn:Hc; [|now subst s'].
    destruct (cl_up cl) as [|mm up'] eqn:Hcup; [now subst s'|].
    subst s'. cbv zeta in *. chain_cbn. cbn [ch_rr with_clients] in Hs'.
    destruct (Htok c cl Hc) as [Hgot Hcnt Hcur Hup Hdown Hin Hout].
    rewrite Hcup in Hup, Hcnt. cbn [length] in Hcnt.
    inversion Hup as [|x l Hmm Hup']; subst x l. subst mm.
    set (g := fun cl0 : client => set_client cl0 (cl_sent cl0) (cl_out cl0) (cl_got cl0) up' (cl_down cl0)).
    destruct (ch_rr s) as [|w rest] eqn:Hr.
    + unfold lose. chain_cbn. constructor; chain_cbn; try assumption.
      * apply (upd_nodup_cases cl_id g _ c cl _ Hnd Hc).
        -- constructor; unfold g, cur; client_cbn; try assumption.
           rewrite cnt_snoc, hd_is_self. lia.
        -- intros j b Hj Hjc. apply (cl_token_lost _ reply _ _ (ch_lost s)); [|exact (Htok j b Hj)].
           rewrite cnt_snoc, hd_is_other by exact Hjc. lia.
      * intros Hm. destruct (Hne Hm eq_refl).
      * intros _ Hm. destruct (Hne Hm eq_refl).
    + assert (Hwm : w < m) by (inversion Hrr; assumption).
      destruct (ch_shape_nth_worker _ _ _ w Hsh Hwm) as [wk Hw].
      set (h := fun wk0 : worker => {| wk_in := wk_in wk0 ++ [cl_id cl :: [] :: cur cl]; wk_out := wk_out wk0; wk_served := wk_served wk0 |}).
      pose proof (flat_upd_snoc wk_in h _ _ w wk Hw eq_refl) as Pin.
      assert (Eout : flat wk_out (upd w h (ch_workers s)) = flat wk_out (ch_workers s)) by (apply flat_upd_same; reflexivity).
      constructor; chain_cbn; try assumption.
      * rewrite Eout. intros j b Hj. apply (cl_token_perm Pin (Permutation_refl _)). revert j b Hj.
        apply (upd_nodup_cases cl_id g _ c cl _ Hnd Hc).
        -- constructor; unfold g, cur; client_cbn; try assumption.
           ++ rewrite cnt_cons, hd_is_self. lia.
           ++ constructor; [reflexivity|exact Hin].
        -- intros j b Hj Hjc. apply cl_token_in_other; [apply hd_is_other; exact Hjc|exact (Htok j b Hj)].
      * apply (Permutation_Forall (Permutation_sym Pin)). constructor; [|exact Hoin].
        exists (cl_id cl), (cur cl). split; [exact (ch_shape_id_in ids m s c cl Hsh Hc)|].
        split; [|reflexivity]. apply Hcur. destruct (cl_out cl); [reflexivity|discriminate Hcnt].
      * rewrite Eout. exact Hoout.
      * intros Hm.
        rewrite Pin, (flat_upd_same wk_served h), (flat_upd_same cl_sent g) by reflexivity.
        rewrite <- (Hsent Hm), (flat_upd_pop cl_up g _ _ c cl Hc Hcup). cbn [map tl skipn].
        apply Permutation_app_head, Permutation_middle.
  - (* CServe: from [wk_in] to [wk_out], the request replaced by its reply *)
    destruct (nth_error (ch_workers s) w) as [wk|] eqn:Hw; [|now subst s'].
    destruct (wk_in wk) as [|mm in'] eqn:Hwin; [now subst s'|].
    destruct (flat_nth_head _ wk_in mm in' _ w wk Hw Hwin Hoin) as (id & p & Hid & Hp & ->).
    rewrite (rep_split_ok id p (Hids id Hid) Hp) in Es. cbn [rep_wrap app] in Es. subst s'.
    set (h := fun wk0 : worker => {| wk_in := in'; wk_out := wk_out wk0 ++ [id :: [] :: reply p]; wk_served := wk_served wk0 ++ [p] |}).
    change (upd w _ (ch_workers s)) with (upd w h (ch_workers s)).
    pose proof (flat_upd_pop wk_in h _ _ w wk Hw Hwin) as Pin.
    pose proof (flat_upd_snoc wk_out h _ _ w wk Hw eq_refl) as Pout.
    constructor; chain_cbn; try assumption.
    + intros k clk Hk. apply (cl_token_perm (Permutation_refl _) Pout), cl_token_serve.
      exact (cl_token_perm (Permutation_sym Pin) (Permutation_refl _) (Htok k clk Hk)).
    + exact (Forall_inv_tail (Permutation_Forall Pin Hoin)).
    + apply (Permutation_Forall (Permutation_sym Pout)). constructor; [|exact Hoout].
      exists id, ([] :: reply p). split; [exact Hid|reflexivity].
    + intros Hm.
      rewrite (flat_upd_snoc wk_served h _ _ w wk Hw eq_refl), <- (Hsent Hm), Pin. cbn [map skipn].
      apply Permutation_middle.
  - (* CBack: from [wk_out] to the [cl_down] of the client it names *)
    destruct (nth_error (ch_workers s) w) as [wk|] eqn:Hw; [|now subst s'].
    destruct (wk_out wk) as [|mm out'] eqn:Hwout; [now subst s'|].
    cbv zeta in Es.
    destruct (flat_nth_head _ wk_out mm out' _ w wk Hw Hwout Hoout) as (id & r & Hid & ->).
    rewrite <- Hsid in Hid. destruct (find_client_some _ _ Hid) as (j & clj & Hfind & Hj & <-).
    pose proof (flat_nth_head _ wk_out _ out' _ w wk Hw Hwout (t_out _ _ _ _ _ _ (Htok j clj Hj)) (hd_is_self _ _)) as E.
    injection E as ->.
    cbn [ch_clients with_workers] in Es. rewrite Hfind in Es. subst s'.
    set (h := fun wk0 : worker => {| wk_in := wk_in wk0; wk_out := out'; wk_served := wk_served wk0 |}).
    set (g := fun cl0 : client => set_client cl0 (cl_sent cl0) (cl_out cl0) (cl_got cl0) (cl_up cl0) (cl_down cl0 ++ [[] :: reply (cur clj)])).
    pose proof (flat_upd_pop wk_out h _ _ w wk Hw Hwout) as Pout.
    assert (Ein : flat wk_in (upd w h (ch_workers s)) = flat wk_in (ch_workers s)) by (apply flat_upd_same; reflexivity).
    constructor; chain_cbn; try assumption.
    + rewrite Ein.
      assert (Htok' : forall k b, nth_error (ch_clients s) k = Some b ->
                cl_token (reply_ok reply) reply (flat wk_in (ch_workers s)) ((cl_id clj :: [] :: reply (cur clj)) :: flat wk_out (upd w h (ch_workers s))) (ch_lost s) b).
      { intros k b Hk. exact (cl_token_perm (Permutation_refl _) (Permutation_sym Pout) (Htok k b Hk)). }
      apply (upd_nodup_cases cl_id g _ j clj _ Hnd Hj).
      * destruct (Htok' j clj Hj) as [Hgot Hcnt Hcur Hup Hdown Hin Hout].
        constructor; unfold g, cur; client_cbn; try assumption.
        -- rewrite cnt_cons, hd_is_self in Hcnt. rewrite app_length. cbn [length]. lia.
        -- apply Forall_app. split; [exact Hdown|]. constructor; [reflexivity|constructor].
        -- exact (Forall_inv_tail Hout).
      * intros k b Hk Hjk.
        apply (cl_token_out_other _ reply _ _ _ b (cl_id clj :: [] :: reply (cur clj))); [apply hd_is_other; exact Hjk|].
        exact (Htok' k b Hk).
    + rewrite Ein. exact Hoin.
    + exact (Forall_inv_tail (Permutation_Forall Pout Hoout)).
    + intros Hm. rewrite !flat_upd_same by reflexivity. exact (Hsent Hm).
  - (* CRecv: the token leaves [cl_down]; the reply is refused, and lost, exactly if it is empty *)
    destruct (nth_error (ch_clients s) c) as [cl|] eqn:Hc; [|now subst s'].
    destruct (cl_out cl) eqn:Hout; cbn [negb] in Es; [|now subst s'].
    destruct (cl_down cl) as [|mm down'] eqn:Hd; [now subst s'|].
    destruct (Htok c cl Hc) as [Hgot Hcnt Hcur Hup Hdown Hin Hwout].
    rewrite Hd in Hdown, Hcnt. rewrite Hout in Hcnt. cbn [b2n length] in Hcnt.
    inversion Hdown as [|x l Hmm Hdown']; subst x l. subst mm.
    specialize (Hcur Hout).
    assert (Htok' : forall (gf : client -> list msg), (reply_ok reply -> gf cl = map reply (cl_sent cl)) -> forall j b,
              nth_error (upd c (fun cl0 => set_client cl0 (cl_sent cl0) false (gf cl0) (cl_up cl0) down') (ch_clients s)) j = Some b ->
              cl_token (reply_ok reply) reply (flat wk_in (ch_workers s)) (flat wk_out (ch_workers s)) (ch_lost s) b).
    { intros gf Hgf. apply (upd_nodup_cases cl_id _ _ c cl _ Hnd Hc); [|intros j b Hj _; exact (Htok j b Hj)].
      constructor; unfold cur; client_cbn; try assumption; [cbn [b2n]; lia|discriminate]. }
    rewrite req_unwrap_wrapped in Es.
    destruct (reply (cur cl)) as [|f r] eqn:Er; subst s'; unfold lose; chain_cbn; constructor; chain_cbn; try assumption.
    + (* the lost [[[]]] is addressed to nobody *)
      intros j b Hj. apply (cl_token_lost _ reply _ _ (ch_lost s)).
      * rewrite cnt_snoc, hd_is_other; [lia|]. apply not_eq_sym, Hids, (ch_shape_id_in _ _ _ j b Hs' Hj).
      * revert j b Hj. apply Htok'. intros Hrep. destruct (Hrep _ Hcur Er).
    + intros Hm. rewrite !flat_upd_same by reflexivity. exact (Hsent Hm).
    + intros Hrep. destruct (Hrep _ Hcur Er).
    + apply Htok'. intros Hrep.
      specialize (Hgot Hrep). unfold answered in Hgot. rewrite Hout in Hgot.
      assert (Hsne : cl_sent cl <> []) by (intros E; apply Hcur; unfold cur; rewrite E; reflexivity).
      rewrite Hgot. rewrite (app_removelast_last ([] : msg) Hsne) at 2. fold (cur cl).
      rewrite map_app. cbn [map]. rewrite Er. reflexivity.
    + intros Hm. rewrite !flat_upd_same by reflexivity. exact (Hsent Hm).
Qed.

Lemma chain_inv_run reply ids m es :
  ids_ok ids -> Forall ev_ok es -> chain_inv reply ids m (crun reply (chain0 ids m) es).
Proof.
  intros Hids Hes. rewrite Forall_forall in Hes.
  apply (fold_left_inv _ (chain_inv reply ids m)); [|apply chain_inv0].
  intros s e He. apply chain_inv_step; [exact Hids|exact (Hes e He)].
Qed.

Lemma quiescent_spec s : quiescent s = true ->
  (forall cl, In cl (ch_clients s) -> cl_up cl = [] /\ cl_down cl = []) /\
  (forall wk, In wk (ch_workers s) -> wk_in wk = [] /\ wk_out wk = []).
Proof.
  assert (Hnil : forall (a b : list msg), is_nil a && is_nil b = true -> a = [] /\ b = []).
  { intros [|x a] [|y b] H; try discriminate H. split; reflexivity. }
  unfold quiescent. rewrite andb_true_iff, !forallb_forall. intros [Hc Hw].
  split; intros a Ha; apply Hnil; [exact (Hc a Ha)|exact (Hw a Ha)].
Qed.

(** With [reply := fun _ => []] the worker's answer travels back as [id; []], the ROUTER hands the
    client the one-frame message [[]], and [req_unwrap] refuses it (fewer than
    [Gen.req_min_frames = 2] frames): the reply is dropped into [ch_lost], the client is no longer
    waiting, and nothing is in flight. *)
Local Open Scope N_scope.
Definition cex_reply : msg -> msg := fun _ => [].
Definition cex_ids : list bytes := [[1]].
Definition cex_events : list cev := [CReq 0 [[5]]; CFront 0; CServe 0; CBack 0; CRecv 0].
Definition cex := crun cex_reply (chain0 cex_ids 1) cex_events.
Local Open Scope nat_scope.

Example cex_final :
  cex = {| ch_clients := [ {| cl_id := [1%N]; cl_sent := [[[5%N]]]; cl_out := false; cl_got := [];
                              cl_up := []; cl_down := [] |} ];
           ch_workers := [ {| wk_in := []; wk_out := []; wk_served := [[[5%N]]] |} ];
           ch_rr := [0]; ch_lost := [[[]]] |}
  /\ quiescent cex = true.
Proof. vm_compute. split; reflexivity. Qed.

Lemma cex_ids_ok : ids_ok cex_ids.
Proof.
  split.
  - constructor; [intros H; destruct H|constructor].
  - constructor; [discriminate|constructor].
Qed.

Lemma cex_events_ok : Forall ev_ok cex_events.
Proof. repeat constructor. cbn [ev_ok]. discriminate. Qed.

Example chain_replies_own_false :
  ~ (forall reply ids m es,
      ids_ok ids -> Forall ev_ok es ->
      Forall (fun cl => cl_got cl = map reply (answered cl)) (ch_clients (crun reply (chain0 ids m) es))).
Proof.
  intros H. specialize (H cex_reply cex_ids 1 cex_events cex_ids_ok cex_events_ok).
  vm_compute in H. inversion H as [|x l Hx Hl]. discriminate Hx.
Qed.

Example chain_nothing_lost_false :
  ~ (forall reply ids m es,
      ids_ok ids -> Forall ev_ok es -> 0 < m ->
      ch_lost (crun reply (chain0 ids m) es) = []).
Proof.
  intros H. specialize (H cex_reply cex_ids 1 cex_events cex_ids_ok cex_events_ok Nat.lt_0_1).
  vm_compute in H. discriminate H.
Qed.

Example chain_quiescent_complete_false :
  ~ (forall reply ids m es,
      ids_ok ids -> Forall ev_ok es -> 0 < m ->
      quiescent (crun reply (chain0 ids m) es) = true ->
      Forall (fun cl => cl_out cl = false /\ cl_got cl = map reply (cl_sent cl)) (ch_clients (crun reply (chain0 ids m) es))).
Proof.
  intros H. specialize (H cex_reply cex_ids 1 cex_events cex_ids_ok cex_events_ok Nat.lt_0_1).
  assert (Hq : quiescent (crun cex_reply (chain0 cex_ids 1) cex_events) = true) by (vm_compute; reflexivity).
  specialize (H Hq). vm_compute in H. inversion H as [|x l Hx Hl]. destruct Hx as [_ Hx]. discriminate Hx.
Qed.

(** every reply a client has received is the reply to one of ITS OWN requests, in order, each once *)
Theorem chain_replies_own' : forall reply ids m es,
  reply_ok reply ->
  ids_ok ids -> Forall ev_ok es ->
  Forall (fun cl => cl_got cl = map reply (answered cl)) (ch_clients (crun reply (chain0 ids m) es)).
Proof.
  intros reply ids m es Hrep Hids Hes.
  apply Forall_forall. intros cl Hin. apply In_nth_error in Hin. destruct Hin as [j Hj].
  exact (t_got _ _ _ _ _ _ (i_tok _ _ _ _ (chain_inv_run reply ids m es Hids Hes) j cl Hj) Hrep).
Qed.

(** with at least one worker nothing is ever undeliverable or malformed on the way *)
Theorem chain_nothing_lost' : forall reply ids m es,
  reply_ok reply ->
  ids_ok ids -> Forall ev_ok es -> 0 < m ->
  ch_lost (crun reply (chain0 ids m) es) = [].
Proof.
  intros reply ids m es Hrep Hids Hes Hm.
  exact (i_lost _ _ _ _ (chain_inv_run reply ids m es Hids Hes) Hrep Hm).
Qed.

(** once nothing is in flight, every client has the replies to all its requests and no request is outstanding *)
Theorem chain_quiescent_complete' : forall reply ids m es,
  reply_ok reply ->
  ids_ok ids -> Forall ev_ok es -> 0 < m ->
  quiescent (crun reply (chain0 ids m) es) = true ->
  Forall (fun cl => cl_out cl = false /\ cl_got cl = map reply (cl_sent cl)) (ch_clients (crun reply (chain0 ids m) es)).
Proof.
  intros reply ids m es Hrep Hids Hes Hm Hq.
  pose proof (chain_inv_run reply ids m es Hids Hes) as Hinv.
  destruct (quiescent_spec _ Hq) as [Hc Hw].
  apply Forall_forall. intros cl Hin.
  destruct (Hc cl Hin) as [Eup Edown].
  apply In_nth_error in Hin. destruct Hin as [j Hj].
  destruct (i_tok _ _ _ _ Hinv j cl Hj) as [Hgot Hcnt _ _ _ _ _]. specialize (Hgot Hrep).
  rewrite Eup, Edown, (i_lost _ _ _ _ Hinv Hrep Hm), !flat_nil in Hcnt by (intros wk Hwk; apply (Hw wk Hwk)).
  unfold answered in Hgot. destruct (cl_out cl); [discriminate Hcnt|].
  split; [reflexivity|exact Hgot].
Qed.

Lemma reply_nonempty_ok reply : (forall d, reply d <> []) -> reply_ok reply.
Proof. intros H d _. apply H. Qed.

Corollary chain_replies_own_nonempty : forall reply ids m es,
  (forall d, reply d <> []) ->
  ids_ok ids -> Forall ev_ok es ->
  Forall (fun cl => cl_got cl = map reply (answered cl)) (ch_clients (crun reply (chain0 ids m) es)).
Proof. intros reply ids m es H. apply chain_replies_own', reply_nonempty_ok, H. Qed.

Corollary chain_nothing_lost_nonempty : forall reply ids m es,
  (forall d, reply d <> []) ->
  ids_ok ids -> Forall ev_ok es -> 0 < m ->
  ch_lost (crun reply (chain0 ids m) es) = [].
Proof. intros reply ids m es H. apply chain_nothing_lost', reply_nonempty_ok, H. Qed.

Corollary chain_quiescent_complete_nonempty : forall reply ids m es,
  (forall d, reply d <> []) ->
  ids_ok ids -> Forall ev_ok es -> 0 < m ->
  quiescent (crun reply (chain0 ids m) es) = true ->
  Forall (fun cl => cl_out cl = false /\ cl_got cl = map reply (cl_sent cl)) (ch_clients (crun reply (chain0 ids m) es)).
Proof. intros reply ids m es H. apply chain_quiescent_complete', reply_nonempty_ok, H. Qed.

(** once nothing is in flight, the workers together have been handed each request exactly once *)
Theorem chain_quiescent_served_once : forall reply ids m es,
  ids_ok ids -> Forall ev_ok es -> 0 < m ->
  quiescent (crun reply (chain0 ids m) es) = true ->
  Permutation (concat (map wk_served (ch_workers (crun reply (chain0 ids m) es))))
              (concat (map cl_sent (ch_clients (crun reply (chain0 ids m) es)))).
Proof.
  intros reply ids m es Hids Hes Hm Hq.
  destruct (quiescent_spec _ Hq) as [Hc Hw].
  pose proof (i_sent _ _ _ _ (chain_inv_run reply ids m es Hids Hes) Hm) as Hsent.
  rewrite (flat_nil wk_in), (flat_nil cl_up) in Hsent by (intros a Ha; apply Hw || apply Hc; exact Ha).
  cbn [map] in Hsent. rewrite !app_nil_r in Hsent. exact Hsent.
Qed.

Theorem chain_shape : forall reply ids m es,
  map cl_id (ch_clients (crun reply (chain0 ids m) es)) = ids /\ length (ch_workers (crun reply (chain0 ids m) es)) = m.
Proof.
  intros reply ids m es. pose proof (ch_shape_run reply ids m es) as H.
  exact (conj (sh_ids _ _ _ H) (sh_len _ _ _ H)).
Qed.

Definition rr_ok (s : chain) : Prop := Forall (fun w => w < length (ch_workers s)) (ch_rr s).

Corollary chain_rr_ok : forall reply ids m es, rr_ok (crun reply (chain0 ids m) es).
Proof.
  intros reply ids m es. pose proof (ch_shape_run reply ids m es) as H.
  unfold rr_ok. rewrite (sh_len _ _ _ H). exact (sh_rr _ _ _ H).
Qed.

Local Open Scope N_scope.
(** non-vacuity: a run with three clients, two workers, payloads with empty frames *)
Definition sample := crun (fun d => [[7]] ++ d) (chain0 [[1];[2;2];[3]] 2)
  [CReq 0 [[10]]; CReq 1 [[];[11]]; CReq 0 [[99]]; CFront 1; CFront 0; CReq 2 [[12];[]]; CServe 0; CServe 1; CFront 2; CBack 1; CBack 0; CRecv 0; CRecv 1;
   CServe 0; CBack 0; CRecv 2; CRecv 2; CReq 0 [[13]]; CFront 0; CServe 1; CBack 1; CRecv 0].
Example sample_quiescent : quiescent sample = true /\ map cl_got (ch_clients sample) = [[[[7]; [10]]; [[7]; [13]]]; [[[7]; []; [11]]]; [[[7]; [12]; []]]].
Proof. vm_compute. split; reflexivity. Qed.
Local Open Scope nat_scope.

Example sample_reply_ok : reply_ok (fun d => [[7%N]] ++ d).
Proof. intros d _. discriminate. Qed.

Print Assumptions chain_replies_own'.
Print Assumptions chain_nothing_lost'.
Print Assumptions chain_quiescent_complete'.
Print Assumptions chain_quiescent_served_once.
Print Assumptions chain_shape.
Print Assumptions chain_replies_own_false.
Print Assumptions chain_nothing_lost_false.
Print Assumptions chain_quiescent_complete_false.
Print Assumptions sample_quiescent.
