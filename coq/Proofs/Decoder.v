(** The frame decoder and the framed reader: fuel irrelevance, panic freedom, resumability,
    segmentation independence, memory bound, and agreement with the declarative stream spec. *)
From ZV Require Import Base.Bytes Base.Res Model.Codec Spec.Stream Proofs.BytesProofs.

Inductive sres := Done (x : dres * dec * bytes) | Cont (d : dec) (b : bytes).

Definition res_dres {A} (f : A -> item) (r : res A) : dres :=
  match r with Ok a => RItem (f a) | Err e => RErr e | Panic s => RPanic s end.

Definition acc_app (acc : option (list bytes)) (m : list bytes) : list bytes :=
  match acc with Some v => v ++ m | None => m end.

Definition lenw (f : fr) : N := if f_long f then 8 else 1.

Definition Hd (acc : option (list bytes)) : dec := {| st := SHeader; waiting := 1; buffered := acc |}.

(** The generated constants are written as literals here; [decode_step] is where they meet [Gen]. *)
Definition dec_step (d : dec) (buf : bytes) : sres :=
  if lenN buf <? waiting d then Done (RNone, d, buf) else
  match st d with
  | SGreeting =>
    match buf with
    | [] => Done (RPanic PIndex, d, buf)
    | b0 :: _ =>
      if negb (b0 =? 255) then Done (RErr EDecode, d, buf) else
      if (length buf <? 64)%nat then Done (RPanic PSplit, d, buf) else
      Done (res_dres IGreeting (parse_greeting (firstn 64 buf)), Hd (buffered d), skipn 64 buf)
    end
  | SHeader =>
    match buf with
    | [] => Done (RPanic PGetInt, d, buf)
    | b :: rest =>
      Cont {| st := SLen (flags_of b); waiting := lenw (flags_of b); buffered := buffered d |} rest
    end
  | SLen f =>
    let k := N.to_nat (lenw f) in
    if (length buf <? k)%nat then Done (RPanic PGetInt, d, buf) else
    Cont {| st := SFrame f; waiting := of_be (firstn k buf); buffered := buffered d |} (skipn k buf)
  | SFrame f =>
    let data := firstnN (waiting d) buf in
    let rest := skipnN (waiting d) buf in
    if f_cmd f then Done (res_dres ICommand (parse_command data), Hd (buffered d), rest)
    else if f_more f then Cont (Hd (Some (acc_app (buffered d) [data]))) rest
    else Done (RItem (IMessage (acc_app (buffered d) [data])), Hd None, rest)
  end.

Lemma decode_step f d buf :
  decode (S f) d buf = match dec_step d buf with Done x => x | Cont d' b' => decode f d' b' end.
Proof.
  unfold dec_step, acc_app, res_dres, Hd, lenw. cbn [decode].
  destruct (lenN buf <? waiting d); [reflexivity|].
  destruct (st d) as [| |fl|fl].
  - destruct buf as [|b0 t]; [reflexivity|].
    change Gen.greeting_first with 255. destruct (negb (b0 =? 255)); [reflexivity|].
    cbv zeta. change (N.to_nat Gen.greeting_split) with 64%nat.
    destruct (length (b0 :: t) <? 64)%nat; [reflexivity|].
    destruct (parse_greeting _); reflexivity.
  - destruct buf as [|b0 t]; reflexivity.
  - cbv zeta. destruct (f_long fl); (destruct (length buf <? _)%nat; reflexivity).
  - cbv zeta. destruct (f_cmd fl).
    + destruct (parse_command _); reflexivity.
    + destruct (f_more fl); reflexivity.
Qed.

Lemma dec_step_wait d buf : lenN buf < waiting d -> dec_step d buf = Done (RNone, d, buf).
Proof. intros H. unfold dec_step. destruct (N.ltb_spec (lenN buf) (waiting d)); [reflexivity|lia]. Qed.

Definition bsz (acc : option (list bytes)) : N :=
  match acc with Some fs => fold_right (fun f a => lenN f + a) 0 fs | None => 0 end.

Lemma bsz_acc_app acc data : bsz (Some (acc_app acc [data])) = bsz acc + lenN data.
Proof.
  destruct acc as [v|]; cbn [bsz acc_app fold_right]; [|lia].
  induction v as [|y v IH]; cbn [app fold_right]; lia.
Qed.

(** The last part bounds the bytes held: input not yet read plus the frames of the message under assembly. *)
Definition dec_advance (d : dec) (buf : bytes) (d' : dec) (b' : bytes) : Prop :=
  (wfd d -> wfd d') /\ (length b' <= length buf)%nat /\
  lenN b' + bsz (buffered d') <= lenN buf + bsz (buffered d).

Lemma dec_advance_refl d buf : dec_advance d buf d buf.
Proof. unfold dec_advance. repeat split; [auto|lia|lia]. Qed.

Lemma dec_advance_trans d buf d1 b1 d2 b2 : dec_advance d buf d1 b1 -> dec_advance d1 b1 d2 b2 -> dec_advance d buf d2 b2.
Proof. unfold dec_advance. intros (W1 & L1 & M1) (W2 & L2 & M2). repeat split; [auto|lia|lia]. Qed.

(** [RNone] leaves the decoder short of input; an item leaves it at a frame header, having
    consumed input (unless it started inside an empty frame); panics need an ill-formed state. *)
Definition dec_result (d : dec) (buf : bytes) (r : dres) (d' : dec) (b' : bytes) : Prop :=
  match r with
  | RNone => lenN b' < waiting d'
  | RItem _ => waiting d' = 1 /\ (1 <= waiting d -> (length b' < length buf)%nat)
  | RErr _ => True
  | RPanic _ => ~ wfd d
  | RFuel => False
  end.

Lemma parse_props_no_panic : forall fuel buf acc s,
  (length buf < fuel)%nat -> parse_props fuel buf acc <> Panic s.
Proof.
  induction fuel as [|fuel IH]; intros buf acc s H; [lia|].
  cbn [parse_props]. destruct buf as [|pl r0]; [discriminate|].
  destruct (lenN r0 <? pl); [discriminate|].
  destruct (negb _); [discriminate|].
  change Gen.cmd_parse_vlen_guard with 4. change (N.to_nat Gen.cmd_parse_vlen_width) with 4%nat.
  destruct (N.ltb_spec (lenN (skipnN pl r0)) 4) as [|Hg]; [discriminate|].
  destruct (Nat.ltb_spec (length (skipnN pl r0)) 4) as [Hl|Hl]; [unfold lenN in Hg; lia|].
  destruct (lenN _ <? _); [discriminate|].
  apply IH. unfold skipnN in *. rewrite !skipn_length in *. cbn [length] in H. lia.
Qed.

Lemma parse_command_no_panic : forall body s, parse_command body <> Panic s.
Proof.
  intros body s. unfold parse_command. destruct body as [|cl r]; [discriminate|].
  destruct (lenN r <? cl); [discriminate|]. destruct (negb _); [discriminate|].
  apply parse_props_no_panic. unfold skipnN. rewrite skipn_length. lia.
Qed.

Lemma parse_greeting_no_panic : forall v s, parse_greeting v <> Panic s.
Proof.
  intros v s. unfold parse_greeting. destruct (_ || _); [discriminate|].
  unfold parse_mech.
  destruct (bytes_eqb _ ascii_NULL); [discriminate|].
  destruct (bytes_eqb _ ascii_PLAIN); [discriminate|].
  destruct (bytes_eqb _ ascii_CURVE); discriminate.
Qed.

Lemma dec_result_res {A} (f : A -> item) r d buf d' b' :
  (forall s, r <> Panic s) -> waiting d' = 1 -> (1 <= waiting d -> (length b' < length buf)%nat) ->
  dec_result d buf (res_dres f r) d' b'.
Proof. intros P W L. destruct r; cbn [res_dres dec_result]; [auto|exact I|elim (P s); reflexivity]. Qed.

Lemma dec_advance_skipn d buf d' n :
  wfd d' -> bsz (buffered d') <= bsz (buffered d) + lenN (firstn n buf) -> dec_advance d buf d' (skipn n buf).
Proof.
  intros W M. pose proof (f_equal lenN (firstn_skipn n buf)) as E. rewrite lenN_app in E.
  unfold dec_advance, lenN in *. repeat split; [intros _; exact W|lia|lia].
Qed.

Lemma wfd_waiting d : wfd d ->
  match st d with
  | SGreeting => waiting d = 64 | SHeader => waiting d = 1 | SLen f => waiting d = lenw f | SFrame _ => True
  end.
Proof. exact (fun W => W). Qed.

Lemma dec_step_facts d buf :
  match dec_step d buf with
  | Cont d' b' => dec_advance d buf d' b' /\ (mu d' b' < mu d buf)%nat /\
                  (1 <= waiting d -> (length b' < length buf)%nat)
  | Done (r, d', b') => dec_advance d buf d' b' /\ dec_result d buf r d' b' /\ (r = RNone -> lenN buf < waiting d)
  end.
Proof.
  unfold dec_step, mu.
  destruct (N.ltb_spec (lenN buf) (waiting d)) as [L|L].
  { split; [apply dec_advance_refl|]. split; [exact L|trivial]. }
  assert (forall r, r <> RNone -> dec_result d buf r d buf ->
            dec_advance d buf d buf /\ dec_result d buf r d buf /\ (r = RNone -> lenN buf < waiting d)) as Same.
  { intros r N R. split; [apply dec_advance_refl|]. split; [exact R|]. intros E. elim (N E). }
  pose proof (wfd_waiting d) as W. unfold lenN, skipnN in *.
  destruct (st d) as [| |f|f].
  - destruct buf as [|b0 t].
    { apply Same; [discriminate|]. intros X. apply W in X. cbn [length] in L. lia. }
    destruct (negb (b0 =? 255)); [apply Same; [discriminate|exact I]|].
    destruct (Nat.ltb_spec (length (b0 :: t)) 64) as [L1|L1].
    { apply Same; [discriminate|]. intros X. apply W in X. lia. }
    split; [apply dec_advance_skipn; [reflexivity|cbn [buffered Hd]; lia]|]. split.
    + apply dec_result_res; [apply parse_greeting_no_panic|reflexivity|rewrite skipn_length; lia].
    + destruct (parse_greeting _); discriminate.
  - destruct buf as [|b0 t].
    { apply Same; [discriminate|]. intros X. apply W in X. cbn [length] in L. lia. }
    split; [apply (dec_advance_skipn d (b0 :: t) _ 1); [reflexivity|cbn [buffered]; lia]|].
    cbn [st length]. lia.
  - cbv zeta. destruct (Nat.ltb_spec (length buf) (N.to_nat (lenw f))) as [L1|L1].
    { apply Same; [discriminate|]. intros X. apply W in X. lia. }
    split; [apply dec_advance_skipn; [exact I|cbn [buffered]; lia]|].
    rewrite skipn_length. cbn [st]. unfold lenw in *. destruct (f_long f); lia.
  - cbv zeta. destruct (f_cmd f); [|destruct (f_more f)].
    + split; [apply dec_advance_skipn; [reflexivity|cbn [buffered Hd]; lia]|]. split.
      * apply dec_result_res; [apply parse_command_no_panic|reflexivity|rewrite skipn_length; lia].
      * destruct (parse_command _); discriminate.
    + split; [apply dec_advance_skipn; [reflexivity|cbn [buffered Hd]; rewrite bsz_acc_app; apply N.le_refl]|].
      rewrite skipn_length. cbn [st Hd]. lia.
    + split; [apply dec_advance_skipn; [reflexivity|cbn [buffered Hd bsz]; lia]|].
      cbn [dec_result waiting Hd]. rewrite skipn_length. split; [|discriminate]. split; [reflexivity|lia].
Qed.

(** The graph of [decode], over all amounts of fuel. *)
Inductive Run : dec -> bytes -> dres * dec * bytes -> Prop :=
| RunDone d b x : dec_step d b = Done x -> Run d b x
| RunCont d b d' b' x : dec_step d b = Cont d' b' -> Run d' b' x -> Run d b x
| RunFuel d b : Run d b (RFuel, d, b).

Definition fuelled (x : dres * dec * bytes) : Prop := fst (fst x) <> RFuel.

Lemma decode_Run : forall f d buf, Run d buf (decode f d buf).
Proof.
  induction f as [|f IH]; intros d buf; [apply RunFuel|]. rewrite decode_step.
  destruct (dec_step d buf) as [x|d' b'] eqn:E; [apply RunDone, E|].
  eapply RunCont; [exact E|apply IH].
Qed.

Lemma decode_fuelled : forall f d buf, (mu d buf < f)%nat -> fuelled (decode f d buf).
Proof.
  induction f as [|f IH]; intros d buf H; [lia|]. rewrite decode_step.
  pose proof (dec_step_facts d buf) as S. destruct (dec_step d buf) as [[[r d'] b']|d' b'].
  - destruct S as (_ & R & _). intros E. cbn [fst] in E. subst r. exact R.
  - apply IH. lia.
Qed.

Lemma Run_step d b x : Run d b x -> fuelled x ->
  match dec_step d b with Done y => x = y | Cont d' b' => Run d' b' x end.
Proof.
  intros R F. inversion R as [? ? ? E|? ? ? ? ? E R'|]; subst;
    [rewrite E; reflexivity|rewrite E; exact R'|elim F; reflexivity].
Qed.

Lemma Run_fun d b x : Run d b x -> forall y, Run d b y -> fuelled x -> fuelled y -> x = y.
Proof.
  induction 1 as [d b x E|d b d' b' x E R IH|d b]; intros y Ry Fx Fy.
  - apply Run_step in Ry; [|exact Fy]. rewrite E in Ry. symmetry. exact Ry.
  - apply Run_step in Ry; [|exact Fy]. rewrite E in Ry. apply IH; assumption.
  - elim Fx. reflexivity.
Qed.

Lemma Run_decode f d buf x : Run d buf x -> fuelled x -> (mu d buf < f)%nat -> decode f d buf = x.
Proof. intros R F H. apply (Run_fun d buf); auto using decode_Run, decode_fuelled. Qed.

Lemma decode_fuel_irrelevant : forall f1 f2 d buf,
  (mu d buf < f1)%nat -> (mu d buf < f2)%nat -> decode f1 d buf = decode f2 d buf.
Proof. intros f1 f2 d buf H1 H2. apply Run_decode; [apply decode_Run|apply decode_fuelled, H2|exact H1]. Qed.

Lemma Run_facts d buf x : Run d buf x ->
  let '(r, d', b') := x in dec_advance d buf d' b' /\ (r <> RFuel -> dec_result d buf r d' b').
Proof.
  induction 1 as [d b [[r d'] b'] E|d b d1 b1 [[r d'] b'] E R IH|d b];
    try (pose proof (dec_step_facts d b) as S; rewrite E in S).
  - destruct S as (T & Rs & _). split; [exact T|intros _; exact Rs].
  - destruct S as (T & _ & L). destruct IH as [T1 R1].
    split; [exact (dec_advance_trans _ _ _ _ _ _ T T1)|]. intros F. specialize (R1 F).
    destruct r; cbn [dec_result] in *; trivial.
    + destruct R1 as [W1 _]. split; [exact W1|]. intros H. apply L in H. destruct T1 as (_ & L1 & _). lia.
    + intros W. apply R1, T, W.
  - split; [apply dec_advance_refl|]. intros F. elim F. reflexivity.
Qed.

Lemma decode_facts f d buf r d' b' :
  decode f d buf = (r, d', b') -> dec_advance d buf d' b' /\ (r <> RFuel -> dec_result d buf r d' b').
Proof. intros H. apply (Run_facts d buf (r, d', b')). rewrite <- H. apply decode_Run. Qed.

Lemma decode_wfd : forall f d buf r d' buf',
  wfd d -> decode f d buf = (r, d', buf') -> wfd d'.
Proof. intros f d buf r d' buf' W H. apply decode_facts in H as [(T & _) _]. exact (T W). Qed.

Lemma decode_shrink : forall f d buf r d' b',
  decode f d buf = (r, d', b') -> (length b' <= length buf)%nat.
Proof. intros f d buf r d' b' H. apply decode_facts in H as [(_ & L & _) _]. exact L. Qed.

Lemma decode_none_quiet : forall f d buf d' buf',
  decode f d buf = (RNone, d', buf') -> lenN buf' < waiting d'.
Proof. intros f d buf d' buf' H. apply decode_facts in H as [_ R]. apply R. discriminate. Qed.

Lemma decode_item_state : forall f d buf i d' b',
  decode f d buf = (RItem i, d', b') -> waiting d' = 1.
Proof. intros f d buf i d' b' H. apply decode_facts in H as [_ R]. apply R. discriminate. Qed.

Lemma decode_item_strict f d buf i d' b' :
  1 <= waiting d -> decode f d buf = (RItem i, d', b') -> (length b' < length buf)%nat.
Proof. intros W H. apply decode_facts in H as [_ R]. apply R; [discriminate|exact W]. Qed.

Lemma quiet_decode f d buf : (0 < f)%nat -> lenN buf < waiting d -> decode f d buf = (RNone, d, buf).
Proof. intros Hf H. destruct f as [|f]; [lia|]. rewrite decode_step, dec_step_wait by exact H. reflexivity. Qed.

Lemma decode_none_idempotent : forall f d buf d' buf',
  decode f d buf = (RNone, d', buf') -> forall f', (0 < f')%nat -> decode f' d' buf' = (RNone, d', buf').
Proof.
  intros f d buf d' buf' H f' Hf. apply quiet_decode; [assumption|].
  eapply decode_none_quiet; eauto.
Qed.

Lemma wfd_waiting_ge1 d : wfd d -> (exists f, st d = SFrame f) \/ 1 <= waiting d.
Proof.
  intros W. apply wfd_waiting in W. destruct (st d) as [| |f|f]; [right..|left; eauto]; rewrite W.
  - lia.
  - lia.
  - unfold lenw. destruct (f_long f); lia.
Qed.

Lemma fuel_for_enough : forall d buf, (mu d buf < fuel_for buf)%nat.
Proof. intros d buf. unfold mu, fuel_for. destruct (st d); lia. Qed.

Lemma dec_step_ext d buf ext : wfd d -> waiting d <= lenN buf ->
  dec_step d (buf ++ ext) = match dec_step d buf with
                        | Done (r, d', b') => Done (r, d', b' ++ ext)
                        | Cont d' b' => Cont d' (b' ++ ext)
                        end.
Proof.
  intros W L. apply wfd_waiting in W. unfold dec_step. rewrite lenN_app.
  destruct (N.ltb_spec (lenN buf) (waiting d)); [lia|].
  destruct (N.ltb_spec (lenN buf + lenN ext) (waiting d)); [lia|].
  unfold lenN in L. destruct (st d) as [| |f|f].
  - destruct buf as [|b0 t]; [cbn [length] in L; lia|]. cbn [app].
    destruct (negb _); [reflexivity|].
    change (b0 :: t ++ ext) with ((b0 :: t) ++ ext). rewrite app_length.
    destruct (Nat.ltb_spec (length (b0 :: t)) 64); [lia|].
    destruct (Nat.ltb_spec (length (b0 :: t) + length ext) 64); [lia|].
    rewrite firstn_app_le, skipn_app_le by lia. reflexivity.
  - destruct buf as [|b0 t]; [cbn [length] in L; lia|]. reflexivity.
  - cbv zeta. rewrite app_length.
    destruct (Nat.ltb_spec (length buf) (N.to_nat (lenw f))); [lia|].
    destruct (Nat.ltb_spec (length buf + length ext) (N.to_nat (lenw f))); [lia|].
    rewrite firstn_app_le, skipn_app_le by lia. reflexivity.
  - cbv zeta. unfold firstnN, skipnN. rewrite firstn_app_le, skipn_app_le by lia.
    destruct (f_cmd f); [reflexivity|]. destruct (f_more f); reflexivity.
Qed.

Lemma dec_step_mu d buf d' b' : dec_step d buf = Cont d' b' -> (mu d' b' < mu d buf)%nat.
Proof. intros E. pose proof (dec_step_facts d buf) as S. rewrite E in S. apply S. Qed.

Lemma Run_ext d buf x ext : Run d buf x -> wfd d ->
  match x with
  | (RNone, d', b') => (mu d' (b' ++ ext) <= mu d (buf ++ ext))%nat /\
                       forall y, Run d' (b' ++ ext) y -> Run d (buf ++ ext) y
  | (r, d', b') => Run d (buf ++ ext) (r, d', b' ++ ext)
  end.
Proof.
  induction 1 as [d b [[r d'] b'] E|d b d1 b1 x E R IH|d b]; intros W.
  - destruct (N.lt_ge_cases (lenN b) (waiting d)) as [L|L].
    + rewrite (dec_step_wait _ _ L) in E. inversion E; subst. auto.
    + pose proof (dec_step_ext d b ext W L) as X. rewrite E in X.
      pose proof (dec_step_facts d b) as S. rewrite E in S. destruct S as (_ & _ & N).
      destruct r; [specialize (N eq_refl); lia|apply RunDone, X..].
  - assert (waiting d <= lenN b) as L.
    { apply N.le_ngt. intros L. rewrite (dec_step_wait _ _ L) in E. discriminate. }
    pose proof (dec_step_ext d b ext W L) as X. rewrite E in X.
    pose proof (dec_step_facts d b) as S. rewrite E in S. destruct S as ((W1 & _) & _).
    specialize (IH (W1 W)).
    destruct x as [[[] d'] b']; [|eapply RunCont; [exact X|exact IH]..].
    destruct IH as [M IH]. split; [apply dec_step_mu in X; lia|].
    intros y Ry. eapply RunCont; [exact X|]. apply IH, Ry.
  - apply RunFuel.
Qed.

Definition dec1 (d : dec) (buf : bytes) := decode (fuel_for buf) d buf.

Lemma dec1_Run d buf : Run d buf (dec1 d buf).
Proof. apply decode_Run. Qed.

Lemma dec1_fuelled d buf : fuelled (dec1 d buf).
Proof. apply decode_fuelled, fuel_for_enough. Qed.

Lemma Run_dec1 d buf x : Run d buf x -> fuelled x -> dec1 d buf = x.
Proof. intros R F. apply Run_decode; [exact R|exact F|apply fuel_for_enough]. Qed.

Lemma dec1_fuel f d buf : (mu d buf < f)%nat -> decode f d buf = dec1 d buf.
Proof. intros H. apply Run_decode; [apply dec1_Run|apply dec1_fuelled|exact H]. Qed.

Lemma dec1_not_fuel d buf d' b' : dec1 d buf <> (RFuel, d', b').
Proof. intros H. apply (dec1_fuelled d buf). rewrite H. reflexivity. Qed.

Lemma dec1_not_panic d buf s d' b' : wfd d -> dec1 d buf <> (RPanic s, d', b').
Proof. intros W H. apply decode_facts in H as [_ R]. exact (R ltac:(discriminate) W). Qed.

Lemma dec1_ext_item d buf ext r d' b' :
  wfd d -> dec1 d buf = (r, d', b') -> r <> RNone -> dec1 d (buf ++ ext) = (r, d', b' ++ ext).
Proof.
  intros W H Hn. pose proof (Run_ext d buf _ ext (dec1_Run d buf) W) as X. rewrite H in X.
  apply Run_dec1; [destruct r; [elim Hn; reflexivity|exact X..]|].
  unfold fuelled. cbn [fst]. intros ->. exact (dec1_not_fuel _ _ _ _ H).
Qed.

Lemma dec1_ext_none d buf ext d' b' :
  wfd d -> dec1 d buf = (RNone, d', b') -> dec1 d (buf ++ ext) = dec1 d' (b' ++ ext).
Proof.
  intros W H. pose proof (Run_ext d buf _ ext (dec1_Run d buf) W) as X. rewrite H in X.
  apply Run_dec1; [apply X, dec1_Run|apply dec1_fuelled].
Qed.

(** Stated through [decode], in the model's own terms; used through [settled_iff]. *)
Definition settled (r : reader) : Prop :=
  wfd (rd_dec r) /\ (rd_stop r = true \/ exists f, (0 < f)%nat /\ decode f (rd_dec r) (rd_buf r) = (RNone, rd_dec r, rd_buf r)).

Lemma settled_iff r :
  settled r <-> wfd (rd_dec r) /\ (rd_stop r = true \/ lenN (rd_buf r) < waiting (rd_dec r)).
Proof.
  unfold settled. split; (intros [W [S|Q]]; split; [exact W|left; exact S|exact W|right]).
  - destruct Q as (f & _ & D). exact (decode_none_quiet _ _ _ _ _ D).
  - exists 1%nat. split; [lia|]. apply quiet_decode; [lia|exact Q].
Qed.

Lemma settled_reader0 : settled reader0.
Proof. apply settled_iff. split; [reflexivity|right; reflexivity]. Qed.

Lemma drain_S n d buf :
  drain (S n) d buf =
    match dec1 d buf with
    | (RNone, d', buf') => ([], d', buf', false)
    | (RItem i, d', buf') => let '(os, d2, b2, s) := drain n d' buf' in (OItem i :: os, d2, b2, s)
    | (RErr e, d', buf') => ([OErr e], d', buf', true)
    | (RPanic s, d', buf') => ([OPanic s], d', buf', true)
    | (RFuel, d', buf') => ([OPanic PAssert], d', buf', true)
    end.
Proof. reflexivity. Qed.

(** The graph of what [feed] does with a live reader. *)
Definition stop_of (r : dres) : option (list out * bool) :=
  match r with
  | RNone => Some ([], false)
  | RItem _ => None
  | RErr e => Some ([OErr e], true)
  | RPanic s => Some ([OPanic s], true)
  | RFuel => Some ([OPanic PAssert], true)
  end.

Inductive Drain : dec -> bytes -> list out * reader -> Prop :=
| DrItem d b i d1 b1 os r :
    dec1 d b = (RItem i, d1, b1) -> Drain d1 b1 (os, r) -> Drain d b (OItem i :: os, r)
| DrStop d b x d' b' os s :
    dec1 d b = (x, d', b') -> stop_of x = Some (os, s) ->
    Drain d b (os, {| rd_dec := d'; rd_buf := b'; rd_stop := s |}).

(** Every round consumes input, given [1 <= waiting d] (inside an empty frame an item comes out
    without consuming); [feed] has that from [settled]. *)
Lemma drain_Drain : forall n d b, 1 <= waiting d -> (length b < n)%nat ->
  Drain d b (let '(os, d', b', s) := drain n d b in (os, {| rd_dec := d'; rd_buf := b'; rd_stop := s |})).
Proof.
  induction n as [|n IH]; intros d b W L; [lia|]. rewrite drain_S.
  destruct (dec1 d b) as [[x d1] b1] eqn:E.
  destruct x; try (eapply DrStop; [exact E|reflexivity]).
  destruct (decode_facts _ _ _ _ _ _ E) as [_ R]. destruct (R ltac:(discriminate)) as [W1 L1]. specialize (L1 W).
  specialize (IH d1 b1). destruct (drain n d1 b1) as [[[os d2] b2] s].
  eapply DrItem; [exact E|]. apply IH; lia.
Qed.

Lemma Drain_fun d b y : Drain d b y -> forall z, Drain d b z -> y = z.
Proof.
  induction 1 as [d b i d1 b1 os r E D IH|d b x d' b' os s E S]; intros z Dz;
    inversion Dz as [? ? i' d1' b1' os' r' E' D'|? ? x' d'' b'' os' s' E' S']; subst;
    rewrite E in E'; inversion E'; subst.
  - specialize (IH _ D'). inversion IH. reflexivity.
  - discriminate.
  - discriminate.
  - rewrite S in S'. inversion S'. reflexivity.
Qed.

Lemma drain_n_irrelevant : forall n1 n2 d buf,
  1 <= waiting d -> (length buf < n1)%nat -> (length buf < n2)%nat -> drain n1 d buf = drain n2 d buf.
Proof.
  intros n1 n2 d buf W H1 H2.
  pose proof (Drain_fun _ _ _ (drain_Drain n1 d buf W H1) _ (drain_Drain n2 d buf W H2)) as E.
  destruct (drain n1 d buf) as [[[o1 d1] b1] s1], (drain n2 d buf) as [[[o2 d2] b2] s2].
  inversion E. reflexivity.
Qed.

Definition nopanic (o : out) : Prop := forall s, o <> OPanic s.

Lemma held_bsz r : held r = lenN (rd_buf r) + bsz (buffered (rd_dec r)).
Proof. reflexivity. Qed.

Lemma Drain_facts d b y : Drain d b y -> wfd d ->
  settled (snd y) /\ Forall nopanic (fst y) /\ held (snd y) <= lenN b + bsz (buffered d).
Proof.
  induction 1 as [d b i d1 b1 os r E D IH|d b x d' b' os s E S]; intros W;
    pose proof (dec1_not_fuel d b) as F; rewrite E in F; apply decode_facts in E as [(W' & _ & M) R].
  - destruct (IH (W' W)) as (HS & P & M'). cbn [fst snd] in *.
    split; [exact HS|]. split; [constructor; [intros s0; discriminate|exact P]|lia].
  - destruct x; inversion S; subst; cbn [dec_result fst snd] in *.
    + split; [apply settled_iff; split; [exact (W' W)|right; apply R; discriminate]|].
      split; [constructor|exact M].
    + split; [apply settled_iff; split; [exact (W' W)|left; reflexivity]|].
      split; [constructor; [intros s0; discriminate|constructor]|exact M].
    + elim (R ltac:(discriminate) W).
    + elim (F _ _ eq_refl).
Qed.

Lemma Drain_cong d b d' b' y : dec1 d b = dec1 d' b' -> Drain d' b' y -> Drain d b y.
Proof.
  intros E D. inversion D; subst; [eapply DrItem|eapply DrStop]; try rewrite E; eassumption.
Qed.

Lemma Drain_ext d buf y ext : Drain d buf y -> wfd d ->
  if rd_stop (snd y)
  then Drain d (buf ++ ext) (fst y, {| rd_dec := rd_dec (snd y); rd_buf := rd_buf (snd y) ++ ext; rd_stop := true |})
  else forall z, Drain (rd_dec (snd y)) (rd_buf (snd y) ++ ext) z -> Drain d (buf ++ ext) (fst y ++ fst z, snd z).
Proof.
  induction 1 as [d b i d1 b1 os r E D IH|d b x d' b' os s E S]; intros W; cbn [fst snd] in *.
  - pose proof (dec1_ext_item _ _ ext _ _ _ W E ltac:(discriminate)) as X.
    specialize (IH (decode_wfd _ _ _ _ _ _ W E)). destruct (rd_stop r).
    + eapply DrItem; [exact X|exact IH].
    + intros z Dz. eapply DrItem; [exact X|]. apply IH, Dz.
  - destruct x; inversion S; subst; cbn [rd_stop rd_dec rd_buf];
      [|eapply DrStop; [exact (dec1_ext_item _ _ ext _ _ _ W E ltac:(discriminate))|reflexivity]..].
    intros [oz rz]. apply Drain_cong, (dec1_ext_none _ _ _ _ _ W E).
Qed.

Lemma feed_unfold r c :
  feed r c = if rd_stop r then ([], r) else
             let '(os, d, b, s) := drain (S (length (rd_buf r ++ c))) (rd_dec r) (rd_buf r ++ c) in
             (os, {| rd_dec := d; rd_buf := b; rd_stop := s |}).
Proof. reflexivity. Qed.

Lemma feed_Drain r c : settled r -> rd_stop r = false -> Drain (rd_dec r) (rd_buf r ++ c) (feed r c).
Proof.
  intros HS Hs. apply settled_iff in HS as [W [S|Q]]; [congruence|]. rewrite feed_unfold, Hs.
  apply drain_Drain; lia.
Qed.

Lemma Drain_feed r c y : settled r -> rd_stop r = false -> Drain (rd_dec r) (rd_buf r ++ c) y -> feed r c = y.
Proof. intros HS Hs D. exact (Drain_fun _ _ _ (feed_Drain r c HS Hs) _ D). Qed.

Lemma feed_facts r c : settled r ->
  settled (snd (feed r c)) /\ Forall nopanic (fst (feed r c)) /\ held (snd (feed r c)) <= held r + lenN c.
Proof.
  intros HS. destruct (rd_stop r) eqn:Hs.
  - rewrite feed_unfold, Hs. cbn [fst snd]. split; [exact HS|]. split; [constructor|lia].
  - pose proof (Drain_facts _ _ _ (feed_Drain r c HS Hs) (proj1 HS)) as F.
    destruct F as (S & P & M). rewrite lenN_app in M. rewrite (held_bsz r).
    split; [exact S|]. split; [exact P|lia].
Qed.

Lemma feed_nil : forall r, settled r -> feed r [] = ([], r).
Proof.
  intros r HS. destruct (rd_stop r) eqn:Hs; [rewrite feed_unfold, Hs; reflexivity|].
  apply Drain_feed; [exact HS|exact Hs|]. apply settled_iff in HS as [_ [S|Q]]; [congruence|].
  destruct r as [d b s]. cbn [rd_stop rd_dec rd_buf] in *. subst s.
  eapply (DrStop _ _ RNone); [|reflexivity]. rewrite app_nil_r.
  apply quiet_decode; [unfold fuel_for; lia|exact Q].
Qed.

(** Feeding [c1] then [c2] gives the outputs of feeding [c1 ++ c2] but not its final reader: after an
    error the unconsumed bytes stay in the buffer, which depends on the cut. *)
Fact feed_app_with_equal_final_reader_is_false :
  ~ (forall r c1 c2 os1 r1 os2 r2,
       settled r -> feed r c1 = (os1, r1) -> feed r1 c2 = (os2, r2) ->
       feed r (c1 ++ c2) = (os1 ++ os2, r2)).
Proof.
  intros A. pose (c1 := repeat 0 64). pose (c2 := [0]).
  specialize (A reader0 c1 c2 (fst (feed reader0 c1)) (snd (feed reader0 c1))
                (fst (feed (snd (feed reader0 c1)) c2)) (snd (feed (snd (feed reader0 c1)) c2))
                settled_reader0 (surjective_pairing _) (surjective_pairing _)).
  vm_compute in A. discriminate A.
Qed.

Fact feed_all_concat_with_equal_final_reader_is_false :
  ~ (forall chunks r, settled r -> feed_all r chunks = feed r (concat chunks)).
Proof.
  intros A. specialize (A [repeat 0 64; [0]] reader0 settled_reader0).
  vm_compute in A. discriminate A.
Qed.

Definition eq_unless_stopped (a b : reader) : Prop :=
  (rd_stop a = false -> b = a) /\ (rd_stop a = true -> rd_stop b = true).

Lemma eq_unless_stopped_refl a : eq_unless_stopped a a.
Proof. split; auto. Qed.

Lemma eq_unless_stopped_trans a b c : eq_unless_stopped a b -> eq_unless_stopped b c -> eq_unless_stopped a c.
Proof.
  intros [A1 A2] [B1 B2]. split; intros H.
  - rewrite (A1 H) in *. apply B1. exact H.
  - apply B2, A2, H.
Qed.

Lemma feed_app r c1 c2 : settled r ->
  exists r', feed r (c1 ++ c2) = (fst (feed r c1) ++ fst (feed (snd (feed r c1)) c2), r') /\
             eq_unless_stopped (snd (feed (snd (feed r c1)) c2)) r'.
Proof.
  intros HS. destruct (rd_stop r) eqn:Hs.
  - rewrite !feed_unfold, Hs. cbn [fst snd]. rewrite Hs. eexists. split; [reflexivity|apply eq_unless_stopped_refl].
  - destruct (feed_facts r c1 HS) as (HS1 & _).
    pose proof (Drain_ext _ _ _ c2 (feed_Drain r c1 HS Hs) (proj1 HS)) as X.
    rewrite <- app_assoc in X. destruct (rd_stop (snd (feed r c1))) eqn:Hs1.
    + rewrite (feed_unfold _ c2), Hs1. cbn [fst snd]. rewrite app_nil_r.
      eexists. split; [exact (Drain_feed r _ _ HS Hs X)|]. split; [congruence|reflexivity].
    + eexists. split; [exact (Drain_feed r _ _ HS Hs (X _ (feed_Drain _ c2 HS1 Hs1)))|apply eq_unless_stopped_refl].
Qed.

Lemma feed_all_cons r c cs :
  feed_all r (c :: cs) = (fst (feed r c) ++ fst (feed_all (snd (feed r c)) cs),
                          snd (feed_all (snd (feed r c)) cs)).
Proof. cbn [feed_all]. destruct (feed r c) as [o1 r1]. cbn [fst snd]. destruct (feed_all r1 cs). reflexivity. Qed.

Lemma feed_all_facts : forall chunks r, settled r ->
  settled (snd (feed_all r chunks)) /\ Forall nopanic (fst (feed_all r chunks)) /\
  held (snd (feed_all r chunks)) <= held r + lenN (concat chunks).
Proof.
  induction chunks as [|c cs IH]; intros r HS.
  - cbn [feed_all concat fst snd]. split; [exact HS|]. split; [constructor|]. rewrite lenN_nil. lia.
  - rewrite feed_all_cons. cbn [fst snd concat].
    destruct (feed_facts r c HS) as (S1 & P1 & M1). destruct (IH _ S1) as (S2 & P2 & M2).
    split; [exact S2|]. split; [apply Forall_app; split; assumption|]. rewrite lenN_app. lia.
Qed.

Lemma feed_all_settled : forall chunks r os r', settled r -> feed_all r chunks = (os, r') -> settled r'.
Proof.
  intros chunks r os r' HS H. pose proof (proj1 (feed_all_facts chunks r HS)) as S.
  rewrite H in S. exact S.
Qed.

Theorem feed_all_concat : forall chunks r, settled r ->
  exists r', feed r (concat chunks) = (fst (feed_all r chunks), r') /\ eq_unless_stopped (snd (feed_all r chunks)) r'.
Proof.
  induction chunks as [|c cs IH]; intros r HS.
  - cbn [feed_all concat fst snd]. rewrite (feed_nil r HS). exists r. split; [reflexivity|apply eq_unless_stopped_refl].
  - rewrite feed_all_cons. cbn [concat fst snd].
    destruct (IH _ (proj1 (feed_facts r c HS))) as (r2 & E & R).
    destruct (feed_app r c (concat cs) HS) as (r3 & E' & R').
    rewrite E in E', R'. cbn [fst snd] in E', R'.
    exists r3. split; [exact E'|exact (eq_unless_stopped_trans _ _ _ R R')].
Qed.

Lemma feed_eof_eq_unless_stopped a b : eq_unless_stopped a b -> feed_eof a = feed_eof b.
Proof.
  intros [A B]. unfold feed_eof. destruct (rd_stop a) eqn:E.
  - rewrite (B eq_refl). reflexivity.
  - rewrite (A eq_refl), E. reflexivity.
Qed.

Lemma lib_items_eq chunks eof :
  lib_items chunks eof =
    fst (feed_all reader0 chunks) ++ if eof then feed_eof (snd (feed_all reader0 chunks)) else [].
Proof.
  unfold lib_items. destruct (feed_all reader0 chunks) as [os r]. cbn [fst snd].
  destruct eof; [reflexivity|]. symmetry. apply app_nil_r.
Qed.

Theorem chunks_eq_whole : forall chunks eof, lib_items chunks eof = lib_items [concat chunks] eof.
Proof.
  intros chunks eof. rewrite !lib_items_eq, feed_all_cons.
  destruct (feed_all_concat chunks reader0 settled_reader0) as (r' & E & R).
  rewrite E. cbn [feed_all fst snd]. rewrite app_nil_r.
  destruct eof; [|reflexivity]. f_equal. apply feed_eof_eq_unless_stopped, R.
Qed.

Theorem segmentation_independent : forall cs1 cs2 eof,
  concat cs1 = concat cs2 -> lib_items cs1 eof = lib_items cs2 eof.
Proof.
  intros cs1 cs2 eof H. rewrite (chunks_eq_whole cs1), (chunks_eq_whole cs2), H. reflexivity.
Qed.

(** C03: the framed reader never panics, whatever the bytes and the cut *)
Theorem lib_never_panics : forall chunks eof,
  Forall (fun o => forall s, o <> OPanic s) (lib_items chunks eof).
Proof.
  intros chunks eof. rewrite lib_items_eq.
  destruct (feed_all_facts chunks reader0 settled_reader0) as (_ & P & _).
  apply Forall_app. split; [exact P|]. destruct eof; [|constructor].
  unfold feed_eof. destruct (rd_stop _); [constructor|].
  destruct (rd_buf _); (constructor; [intros s; discriminate|constructor]).
Qed.

Lemma land_pow2 b k : negb (N.land b (2 ^ k) =? 0) = N.testbit b k.
Proof.
  destruct (N.testbit b k) eqn:T.
  - destruct (N.eqb_spec (N.land b (2 ^ k)) 0) as [E|E]; [|reflexivity].
    exfalso. assert (N.testbit (N.land b (2 ^ k)) k = true) as X
      by (rewrite N.land_spec, T, N.pow2_bits_true; reflexivity).
    rewrite E, N.bits_0 in X. discriminate.
  - replace (N.land b (2 ^ k)) with 0; [reflexivity|].
    symmetry. apply N.bits_inj. intros i. rewrite N.bits_0, N.land_spec, N.pow2_bits_eqb.
    destruct (N.eqb_spec k i) as [<-|]; [rewrite T; reflexivity|apply andb_false_r].
Qed.

Lemma flags_of_bits b :
  flags_of b = {| f_cmd := N.testbit b 2; f_long := N.testbit b 1; f_more := N.testbit b 0 |}.
Proof.
  unfold flags_of.
  change Gen.dec_mask_cmd with (2 ^ 2). change Gen.dec_mask_long with (2 ^ 1).
  change Gen.dec_mask_more with (2 ^ 0). rewrite !land_pow2. reflexivity.
Qed.

Lemma of_be_single n : of_be [n] = n.
Proof. unfold of_be. cbn [of_be_acc]. lia. Qed.

Lemma next_frame_cons fl r :
  next_frame (fl :: r) =
    let k := if N.testbit fl 1 then 8 else 1 in
    if lenN r <? k then None else
    let n := of_be (firstn (N.to_nat k) r) in
    let r' := skipn (N.to_nat k) r in
    if lenN r' <? n then None
    else Some ({| sf_cmd := N.testbit fl 2; sf_more := N.testbit fl 0; sf_body := firstnN n r' |}, skipnN n r').
Proof.
  cbn [next_frame]. destruct (N.testbit fl 1); [reflexivity|]. cbv zeta.
  destruct r as [|n r']; [reflexivity|].
  rewrite lenN_cons. destruct (N.ltb_spec (1 + lenN r') 1); [lia|].
  change (firstn (N.to_nat 1) (n :: r')) with [n]. rewrite of_be_single. reflexivity.
Qed.

Lemma Run_frame acc bs x : Run (Hd acc) bs x -> fuelled x ->
  match next_frame bs with
  | None => fst (fst x) = RNone
  | Some (fr, rest) =>
      (length rest < length bs)%nat /\
      if sf_cmd fr then x = (res_dres ICommand (parse_command (sf_body fr)), Hd acc, rest)
      else if sf_more fr then Run (Hd (Some (acc_app acc [sf_body fr]))) rest x
      else x = (RItem (IMessage (acc_app acc [sf_body fr])), Hd None, rest)
  end.
Proof.
  intros R F. destruct bs as [|fl r].
  { apply Run_step in R; [|exact F]. rewrite dec_step_wait in R by reflexivity. subst x. reflexivity. }
  apply Run_step in R; [|exact F]. unfold dec_step in R. cbn [Hd st waiting buffered] in R.
  rewrite lenN_cons in R. destruct (N.ltb_spec (1 + lenN r) 1) as [L|_]; [lia|].
  apply Run_step in R; [|exact F]. unfold dec_step in R. cbn [st waiting buffered] in R.
  rewrite flags_of_bits in R. unfold lenw in R. cbn [f_long] in R.
  rewrite next_frame_cons. cbv zeta in R |- *.
  destruct (N.ltb_spec (lenN r) (if N.testbit fl 1 then 8 else 1)) as [L|L]; [subst x; reflexivity|].
  destruct (Nat.ltb_spec (length r) (N.to_nat (if N.testbit fl 1 then 8 else 1))) as [L1|L1];
    [unfold lenN in L; lia|].
  apply Run_step in R; [|exact F]. unfold dec_step in R. cbn [st waiting buffered f_cmd f_more] in R.
  destruct (lenN _ <? _); [subst x; reflexivity|]. cbn [sf_cmd sf_more sf_body]. split.
  - unfold skipnN. rewrite !skipn_length. cbn [length]. destruct (N.testbit fl 1); lia.
  - destruct (N.testbit fl 2); [exact R|]. destruct (N.testbit fl 0); exact R.
Qed.

Definition drain_outs (x : list out * dec * bytes * bool) : list out := fst (fst (fst x)).

Definition outs_after (x : dres * dec * bytes) (n : nat) : list out :=
  match x with
  | (RNone, _, _) => []
  | (RItem i, d', b') => OItem i :: drain_outs (drain n d' b')
  | (RErr e, _, _) => [OErr e]
  | (RPanic s, _, _) => [OPanic s]
  | (RFuel, _, _) => [OPanic PAssert]
  end.

Lemma drain_S_outs n d buf : drain_outs (drain (S n) d buf) = outs_after (dec1 d buf) n.
Proof.
  rewrite drain_S. destruct (dec1 d buf) as [[r d'] b']. destruct r; try reflexivity.
  cbn [outs_after]. destruct (drain n d' b') as [[[os d2] b2] s]. reflexivity.
Qed.

Lemma spec_frames_decode : forall fuel acc bs k n,
  (length bs < fuel)%nat -> (mu (Hd acc) bs < k)%nat -> (length bs <= n)%nat ->
  outs_after (decode k (Hd acc) bs) n = spec_frames fuel acc bs.
Proof.
  induction fuel as [|fuel IH]; intros acc bs k n Hfuel Hk Hn; [lia|].
  rewrite dec1_fuel by exact Hk. cbn [spec_frames].
  pose proof (Run_frame acc bs _ (dec1_Run _ _) (dec1_fuelled _ _)) as X.
  destruct (next_frame bs) as [[fr rest]|].
  - destruct X as [L X]. destruct n as [|n]; [lia|]. fold (acc_app acc [sf_body fr]).
    destruct (sf_cmd fr); [|destruct (sf_more fr)].
    + rewrite X. destruct (parse_command (sf_body fr)); cbn [res_dres outs_after]; try reflexivity.
      rewrite drain_S_outs. f_equal. apply IH; [lia|apply fuel_for_enough|lia].
    + apply Run_dec1 in X; [|apply dec1_fuelled]. rewrite <- X. apply IH; [lia|apply fuel_for_enough|lia].
    + rewrite X. cbn [outs_after]. rewrite drain_S_outs. f_equal. apply IH; [lia|apply fuel_for_enough|lia].
  - destruct (dec1 (Hd acc) bs) as [[r d'] b']. cbn [fst] in X. subst r. reflexivity.
Qed.

Lemma feed_fresh d bs :
  fst (feed {| rd_dec := d; rd_buf := []; rd_stop := false |} bs) = outs_after (dec1 d bs) (length bs).
Proof.
  rewrite feed_unfold, <- drain_S_outs. cbn [rd_stop rd_dec rd_buf app].
  destruct (drain _ _ _) as [[[os d'] b'] s]. reflexivity.
Qed.

Theorem whole_eq_spec_all : forall bs, lib_items [bs] false = spec_items bs.
Proof.
  intros bs. rewrite lib_items_eq, feed_all_cons. cbn [feed_all fst]. rewrite !app_nil_r.
  unfold reader0. rewrite feed_fresh.
  pose proof (Run_step _ _ _ (dec1_Run dec0 bs) (dec1_fuelled dec0 bs)) as X.
  unfold dec_step in X. cbn [dec0 st waiting buffered] in X. change Gen.greeting_len with 64 in X.
  unfold spec_items. destruct (N.ltb_spec (lenN bs) 64) as [L|L]; [rewrite X; reflexivity|].
  destruct bs as [|b0 t]; [rewrite lenN_nil in L; lia|].
  cbn [nth]. destruct (negb (b0 =? 255)); [rewrite X; reflexivity|].
  destruct (Nat.ltb_spec (length (b0 :: t)) 64) as [L2|L2]; [unfold lenN in L; lia|].
  rewrite X. destruct (parse_greeting _); cbn [res_dres outs_after]; try reflexivity.
  pose proof (skipn_length 64 (b0 :: t)) as SL. cbn [length] in *.
  rewrite drain_S_outs. f_equal. apply spec_frames_decode; [lia|apply fuel_for_enough|lia].
Qed.

Theorem whole_eq_spec : forall bs, bytes_ok bs = true -> lib_items [bs] false = spec_items bs.
Proof. intros bs _. apply whole_eq_spec_all. Qed.

Print Assumptions decode_fuel_irrelevant.
Print Assumptions feed_all_concat.
Print Assumptions chunks_eq_whole.
Print Assumptions segmentation_independent.
Print Assumptions lib_never_panics.
Print Assumptions whole_eq_spec.
