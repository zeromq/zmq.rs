(** C11 + C13 + C01/C02 composed over the wire: the subscription messages a SUB socket writes for ANY
    history of subscribe / unsubscribe calls, arriving at a PUB socket in ANY chunking, make the PUB
    socket deliver a published message to that subscriber iff a CURRENT subscription of the SUB socket
    is a prefix of the message's first frame. *)
From Coq Require Import List Arith NArith Lia Bool.
From ZV Require Import Model.Codec Model.World Proofs.PubSubWireLemmas.
Import ListNotations.
Open Scope N_scope.

Definition sub_op (o : op) : Prop :=
  match o with OSub t | OUnsub t => bytes_ok t = true /\ lenN t + 1 < 2 ^ 64 | _ => False end.

Definition exec (w : world) (ops : list op) : world := fold_left (fun w o => snd (World.step w o)) ops w.

Theorem pubsub_over_the_wire : forall k j h chunks c m,
  Forall sub_op h ->
  get_conn k (w_conns (exec (world0 SUB) (OAttach k None :: h))) = Some c ->
  concat chunks = c_wire c ->
  m <> [] ->
  World.run (exec (world0 PUB) (OAttach j None :: map (OFeed j) chunks ++ [OSettle])) [OSend m; OWire j] =
  [BSendOk; BWire j (if matches (w_subs (exec (world0 SUB) (OAttach k None :: h))) (hd [] m) then encode_frames m else [])].
Proof.
  intros k j h chunks c m Hh Hg Hc Hm.
  destruct (sub_side k h c Hh Hg) as (msgs & Hwire & Hwf & Hsubs).
  rewrite Hwire in Hc.
  destruct (pub_side j chunks msgs Hwf Hc) as [T X].
  change (wexec (world0 SUB) (OAttach k None :: h)) with (exec (world0 SUB) (OAttach k None :: h)) in Hsubs.
  rewrite <- Hsubs. exact (publish_one j _ _ m (or_introl T) X Hm).
Qed.

Definition ps_h := [OSub [65]; OSub [65;66]; OUnsub [65]; OSub []; OUnsub [7]; OSub [65;66]].
Definition ps_wire := match get_conn 3 (w_conns (exec (world0 SUB) (OAttach 3 None :: ps_h))) with Some c => c_wire c | None => [] end.
Example ps_sample :
  w_subs (exec (world0 SUB) (OAttach 3 None :: ps_h)) = [[65;66]; []] /\
  World.run (exec (world0 PUB) (OAttach 8 None :: map (OFeed 8) [firstn 2 ps_wire; []; skipn 2 ps_wire] ++ [OSettle])) [OSend [[65;66;67];[1]]; OWire 8]
  = [BSendOk; BWire 8 (encode_frames [[65;66;67];[1]])].
Proof. vm_compute. split; reflexivity. Qed.

Print Assumptions pubsub_over_the_wire.
