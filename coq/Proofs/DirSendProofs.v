(** Theorems about directed (ROUTER), lock-step round-robin (REQ) and broadcast (SUB) sending over scripted
    connections (Model/DirSend.v). *)
From ZV Require Import Model.Codec Model.TrySend Model.RrSend Model.DirSend Proofs.RrSendProofs.
From ZV Require Proofs.CodecEnc.
Local Open Scope N_scope.

Theorem send_to_unknown : forall st k m, pget k (r_peers st) = None -> send_to st k m = (RNoPeer, st).
Proof. intros st k m H. unfold send_to. rewrite H. reflexivity. Qed.

(** the write of the round-robin loop, without the loop: the rotation is left alone *)
Lemma send_to_live st k m p : pget k (r_peers st) = Some p ->
  send_to st k m = let '(e, s) := sink_send (p_sink p) (encode_frames m) in (res_of k e, wrote st k e s (r_rr st) (r_rr st)).
Proof. intros Hp. unfold send_to. rewrite Hp. destruct (sink_send (p_sink p) (encode_frames m)) as [[] s]; reflexivity. Qed.

Theorem send_to_touches_only : forall st k m r st', send_to st k m = (r, st') ->
  r_rr st' = r_rr st /\
  forall j, j <> k -> wire_of j st' = wire_of j st /\ pget j (r_peers st') = pget j (r_peers st).
Proof.
  intros st k m r st' H. destruct (pget k (r_peers st)) as [p|] eqn:Ep.
  - rewrite (send_to_live _ _ _ _ Ep) in H. destruct (sink_send (p_sink p) (encode_frames m)) as [e s].
    inversion H. split; [unfold wrote; destruct (keeps e); reflexivity|].
    intros j Hj. destruct (wrote_frame st k e s (r_rr st) (r_rr st) j Hj) as [A B].
    split; [apply wire_of_ext; assumption|exact A].
  - rewrite send_to_unknown in H by exact Ep. inversion H. split; [reflexivity|]. intros; split; reflexivity.
Qed.

Theorem send_to_ok_whole : forall st k m k' st', send_to st k m = (ROk k', st') ->
  k' = k /\ exists p, pget k (r_peers st) = Some p /\
    (k_buf (p_sink p) = [] -> wire_of k st' = wire_of k st ++ encode_frames m).
Proof.
  intros st k m k' st' H. destruct (pget k (r_peers st)) as [p|] eqn:Ep; [|rewrite send_to_unknown in H by exact Ep; discriminate].
  rewrite (send_to_live _ _ _ _ Ep) in H. destruct (sink_send (p_sink p) (encode_frames m)) as [e s] eqn:Es.
  destruct e; inversion H; subst. split; [reflexivity|]. exists p. split; [reflexivity|].
  intros Hb. apply (wrote_ok_whole st k' p _ s _ _ Ep Es Hb).
Qed.

Theorem send_to_err_forgets : forall st k m k' e st', send_to st k m = (RErr k' e, st') ->
  NoDup (map p_id (r_peers st)) ->
  k' = k /\ pget k (r_peers st') = None /\ forall m2, send_to st' k m2 = (RNoPeer, st').
Proof.
  intros st k m k' e st' H Hd. destruct (pget k (r_peers st)) as [p|] eqn:Ep; [|rewrite send_to_unknown in H by exact Ep; discriminate].
  rewrite (send_to_live _ _ _ _ Ep) in H. destruct (sink_send (p_sink p) (encode_frames m)) as [e0 s].
  assert (Hdel : pget k (r_peers st') = None).
  { destruct e0; inversion H; cbn [wrote keeps r_peers]; apply pget_pdel_same; exact Hd. }
  split; [destruct e0; inversion H; reflexivity|]. split; [exact Hdel|]. intros m2. apply send_to_unknown. exact Hdel.
Qed.

(** REQ's pick is the round-robin loop up to the names of the results; the one difference is that the id went back into
    the rotation before the write, so that it is still queued after a failed one *)
Definition q_of (r : rr_res) : q_res :=
  match r with ROk k => QSent k | RErr k e => QErr k e | RNoPeer => QNoPeer | RStall k => QStall k end.
Definition requeue (r : rr_res) (st : rstate) : rstate :=
  match r with RErr k _ => {| r_peers := r_peers st; r_rr := r_rr st ++ [k]; r_gone := r_gone st |} | _ => st end.

Lemma req_pick_as_rr : forall fuel st enc,
  req_pick fuel st enc = let '(r, st') := rr_send fuel st enc in (q_of r, requeue r st').
Proof.
  induction fuel as [|f IH]; intros st enc; cbn [req_pick rr_send]; [reflexivity|].
  destruct (r_rr st) as [|k rest]; [reflexivity|].
  destruct (pget k (r_peers st)) as [p|]; [|apply IH].
  destruct (sink_send (p_sink p) enc) as [[] s]; reflexivity.
Qed.

Theorem req_busy_refused : forall q m k, q_cur q = Some k -> req_send q m = (QBusy, q).
Proof. intros q m k H. unfold req_send. rewrite H. reflexivity. Qed.

Lemma req_send_inv q m r q' : req_send q m = (r, q') ->
  (q_cur q <> None /\ r = QBusy /\ q' = q) \/
  (q_cur q = None /\ exists r0 st, send (q_base q) (World.req_wrap m) = (r0, st) /\ r = q_of r0 /\
     q' = {| q_base := requeue r0 st; q_cur := match r0 with ROk k => Some k | _ => None end |}).
Proof.
  destruct (q_cur q) as [k|] eqn:Ec.
  - rewrite (req_busy_refused q m k Ec). intros H. inversion H. left. split; [discriminate|]. split; reflexivity.
  - unfold req_send, send. rewrite Ec, req_pick_as_rr.
    destruct (rr_send (S (length (r_rr (q_base q)))) (q_base q) (encode_frames (World.req_wrap m))) as [r0 st].
    intros H. inversion H. right. split; [reflexivity|]. exists r0, st. split; [reflexivity|].
    destruct r0; split; reflexivity.
Qed.

Lemma requeue_tabs r st : r_peers (requeue r st) = r_peers st.
Proof. destruct r; reflexivity. Qed.

Lemma wire_of_requeue j r st : wire_of j (requeue r st) = wire_of j st.
Proof. destruct r; reflexivity. Qed.

Theorem req_sent_owes : forall q m k q', req_send q m = (QSent k, q') ->
  q_cur q = None /\ q_cur q' = Some k /\ pget k (r_peers (q_base q)) <> None /\
  (forall p, pget k (r_peers (q_base q)) = Some p -> k_buf (p_sink p) = [] ->
     wire_of k (q_base q') = wire_of k (q_base q) ++ encode_frames (World.req_wrap m)).
Proof.
  intros q m k q' H. apply req_send_inv in H as [(_ & H & _)|(Hc & r0 & st & Es & Hr & ->)]; [discriminate|].
  destruct r0; inversion Hr; subst. destruct (send_ok_whole _ _ _ _ Es) as (p & Hp & Hw).
  cbn [q_cur q_base requeue]. split; [exact Hc|]. split; [reflexivity|]. split; [congruence|].
  intros p0 Hp0 Hb. rewrite Hp in Hp0. inversion Hp0; subst p0. apply Hw. exact Hb.
Qed.

Theorem req_err_forgets : forall q m k e q', req_send q m = (QErr k e, q') ->
  NoDup (map p_id (r_peers (q_base q))) ->
  pget k (r_peers (q_base q')) = None /\ q_cur q' = None.
Proof.
  intros q m k e q' H Hd. apply req_send_inv in H as [(_ & H & _)|(_ & r0 & st & Es & Hr & ->)]; [discriminate|].
  destruct r0; inversion Hr; subst. cbn [q_base q_cur requeue r_peers]. split; [|reflexivity].
  apply send_post in Es as [(_ & E & _)|(pre & k1 & rest & p & e1 & s & _ & _ & _ & _ & E & ->)]; [discriminate|].
  destruct e1; inversion E; cbn [wrote keeps r_peers]; apply pget_pdel_same; exact Hd.
Qed.

Definition q_targets (k : N) (r : q_res) : bool :=
  match r with QSent j | QErr j _ | QStall j => j =? k | _ => false end.

Theorem req_touches_one : forall q m r q', req_send q m = (r, q') -> forall j, q_targets j r = false ->
  wire_of j (q_base q') = wire_of j (q_base q) /\ pget j (r_peers (q_base q')) = pget j (r_peers (q_base q)).
Proof.
  intros q m r q' H j Hj. apply req_send_inv in H as [(_ & _ & ->)|(_ & r0 & st & Es & -> & ->)]; [split; reflexivity|].
  cbn [q_base]. rewrite wire_of_requeue, requeue_tabs.
  apply (send_touches_one _ _ _ _ Es). destruct r0; exact Hj.
Qed.

Fixpoint req_cycles (q : qstate) (ms : list World.msg) : list q_res * qstate :=
  match ms with
  | [] => ([], q)
  | m :: t => let '(r, q1) := req_send q m in let '(rs, q2) := req_cycles (req_settled q1) t in (r :: rs, q2)
  end.

Lemma req_cycles_as_rrun ms : forall st rs st', rrun st (map RSend (map World.req_wrap ms)) = (rs, st') ->
  (forall r, In r rs -> exists k, r = ROk k) ->
  req_cycles {| q_base := st; q_cur := None |} ms = (map q_of rs, {| q_base := st'; q_cur := None |}).
Proof.
  induction ms as [|m ms IH]; intros st rs st' Hrun Hok.
  - inversion Hrun. reflexivity.
  - cbn [map] in Hrun. apply rrun_cons in Hrun as (rs1 & Erun & ->). cbn [rstep] in *. unfold send in *.
    cbn [req_cycles]. unfold req_send, req_settled. cbn [q_cur q_base]. rewrite req_pick_as_rr.
    destruct (rr_send (S (length (r_rr st))) st (encode_frames (World.req_wrap m))) as [r st1].
    cbn [fst snd app] in *. destruct (Hok r (or_introl eq_refl)) as [k ->]. cbn [requeue q_of q_base map].
    rewrite (IH _ _ _ Erun (fun r0 H0 => Hok r0 (or_intror H0))). reflexivity.
Qed.

Theorem req_full_round : forall ms q, q_cur q = None -> all_accepting (q_base q) ->
  (forall k, In k (r_rr (q_base q)) -> pget k (r_peers (q_base q)) <> None) ->
  length ms = length (r_rr (q_base q)) ->
  Forall (fun m => lenN (encode_frames (World.req_wrap m)) < 2 ^ 63) ms ->
  fst (req_cycles q ms) = map QSent (r_rr (q_base q)) /\
  r_rr (q_base (snd (req_cycles q ms))) = r_rr (q_base q).
Proof.
  intros ms [st cur] Hc Ha Hlive Hlen Hsm. cbn [q_cur q_base] in *. subst cur.
  destruct (rr_full_round (map World.req_wrap ms) st Ha Hlive) as [H1 H2];
    [rewrite map_length; exact Hlen|apply Forall_map; exact Hsm|].
  destruct (rrun st (map RSend (map World.req_wrap ms))) as [rs st'] eqn:Erun. cbn [fst snd] in H1, H2.
  rewrite (req_cycles_as_rrun ms st rs st' Erun).
  - cbn [fst snd q_base]. rewrite H1, map_map. split; [reflexivity|exact H2].
  - intros r Hr. rewrite H1 in Hr. apply in_map_iff in Hr as (k & <- & _). exists k. reflexivity.
Qed.

Theorem bcast_ids : forall ps enc rs ps', bcast ps enc = (rs, ps') -> map p_id ps' = map p_id ps.
Proof.
  induction ps as [|p t IH]; intros enc rs ps' H; cbn [bcast] in H.
  - inversion H; reflexivity.
  - destruct (sink_send (p_sink p) enc) as [r s]. destruct (bcast t enc) as [rs0 t'] eqn:Eb.
    specialize (IH _ _ _ Eb).
    destruct r; inversion H; subst; cbn [map p_id]; try rewrite IH; reflexivity.
Qed.

Theorem bcast_no_stall : forall ps enc, (forall p, In p ps -> fst (sink_send (p_sink p) enc) <> FlStall) ->
  bcast ps enc =
  (map (fun p => (p_id p, fst (sink_send (p_sink p) enc))) ps,
   map (fun p => {| p_id := p_id p; p_sink := snd (sink_send (p_sink p) enc) |}) ps).
Proof.
  induction ps as [|p t IH]; intros enc Hn; [reflexivity|].
  cbn [bcast map]. rewrite IH by (intros x Hx; apply Hn; right; exact Hx).
  specialize (Hn p (or_introl eq_refl)).
  destruct (sink_send (p_sink p) enc) as [r s]. cbn [fst snd] in *.
  destruct r; try reflexivity. exfalso. apply Hn. reflexivity.
Qed.

Theorem unsub_unknown_silent : forall st t, has t (s_subs st) = false -> sstep st (SUnsub t) = (Some BOk, st).
Proof. intros st t H. cbn [sstep]. rewrite H. reflexivity. Qed.

Definition swire (k : N) (st : sstate) : bytes :=
  match pget k (s_peers st) with Some p => k_written (p_sink p) | None => [] end.

Definition concerns_peer (k : N) (o : sop) : bool :=
  match o with SAttach j | SMode j _ | SPlan j _ => j =? k | _ => false end.

Lemma first_bad_no_stall rs : match first_bad rs with BStall _ => False | _ => True end ->
  forall x, In x rs -> snd x <> FlStall.
Proof.
  induction rs as [|[j e] t IH]; [intros _ x []|].
  intros H x [<-|Hx].
  - cbn [snd]. intros ->. cbn [first_bad] in H. exact H.
  - apply IH; [|exact Hx].
    destruct e; cbn [first_bad] in H; [exact H| | |destruct H];
      (destruct (first_bad t); [exact I|exact I|exact H]).
Qed.

Lemma bcast_pget : forall ps enc rs ps' k p, bcast ps enc = (rs, ps') ->
  (forall x, In x rs -> snd x <> FlStall) -> pget k ps = Some p ->
  pget k ps' = Some {| p_id := k; p_sink := snd (sink_send (p_sink p) enc) |}.
Proof.
  induction ps as [|a t IH]; intros enc rs ps' k p H Hn Hk; [discriminate|].
  cbn [bcast] in H. destruct (sink_send (p_sink a) enc) as [r s] eqn:Es.
  destruct (bcast t enc) as [rs0 t'] eqn:Eb.
  assert (Hr : r <> FlStall).
  { intros ->. inversion H; subst. apply (Hn (p_id a, FlStall)); [left; reflexivity|reflexivity]. }
  assert (E : rs = (p_id a, r) :: rs0 /\ ps' = {| p_id := p_id a; p_sink := s |} :: t').
  { destruct r; inversion H; subst; try (split; reflexivity). congruence. }
  destruct E as [-> ->].
  cbn [pget p_id] in Hk |- *. destruct (p_id a =? k) eqn:E.
  - inversion Hk; subst p. rewrite Es. cbn [snd]. apply N.eqb_eq in E. rewrite E. reflexivity.
  - eapply IH; [exact Eb| |exact Hk]. intros x Hx. apply Hn. right. exact Hx.
Qed.

(** a topic below [2 ^ 62] bytes makes a subscription message (topic, one byte, frame header of at most 9) below the
    [2 ^ 63] that [accepting_tr] takes in one write *)
Lemma sub_enc_len op t : lenN t < 2 ^ 62 -> lenN (encode_frames (sub_msg op t)) < 2 ^ 63.
Proof.
  intros H. unfold sub_msg, lenN in *. rewrite CodecEnc.encode_length. cbn [CodecEnc.wire_len length].
  change (2 ^ 63) with (2 * 2 ^ 62).
  destruct (lenN (op :: t) <=? 255); lia.
Qed.

Definition healthy (k : N) (ps : list rpeer) (w : bytes) : Prop :=
  exists p, pget k ps = Some p /\ k_tr (p_sink p) = accepting_tr /\ k_buf (p_sink p) = [] /\ k_written (p_sink p) = w.

Lemma bcast_healthy ps op t rs ps' k w :
  bcast ps (encode_frames (sub_msg op t)) = (rs, ps') -> healthy k ps w ->
  match first_bad rs with BStall _ => False | _ => True end -> lenN t < 2 ^ 62 ->
  healthy k ps' (w ++ encode_frames (sub_msg op t)).
Proof.
  intros Eb (p & Hp & Ht & Hb & <-) Hns Hl.
  destruct (sink_send_accepting _ _ Ht Hb (sub_enc_len op t Hl)) as (s' & Hs & Hb' & Ht' & Hw).
  pose proof (bcast_pget _ _ _ _ _ _ Eb (first_bad_no_stall _ Hns) Hp) as H. rewrite Hs in H. cbn [snd] in H.
  eexists. split; [exact H|]. cbn [p_sink]. auto.
Qed.

Lemma pget_retr_other k j f l : j <> k -> pget k (retr j f l) = pget k l.
Proof.
  intros Hn. unfold retr. destruct (pget j l); [|reflexivity].
  rewrite pget_pset. destruct (N.eqb_spec k j); [congruence|reflexivity].
Qed.

Lemma updates_cons st o ops :
  updates (s_subs st) (o :: ops) = updates (s_subs st) [o] ++ updates (s_subs (snd (sstep st o))) ops.
Proof.
  destruct o as [j|j a|j l|t|t]; cbn [updates sstep]; try reflexivity.
  - destruct (has t (s_subs st)); [reflexivity|]. destruct (bcast _ _). reflexivity.
  - destruct (has t (s_subs st)); cbn [negb]; [|reflexivity]. destruct (bcast _ _). reflexivity.
Qed.

Lemma sstep_healthy st o k w : healthy k (s_peers st) w -> concerns_peer k o = false ->
  (forall x, fst (sstep st o) = Some x -> match x with BStall _ => False | _ => True end) ->
  (forall t, o = SSub t \/ o = SUnsub t -> lenN t < 2 ^ 62) ->
  healthy k (s_peers (snd (sstep st o))) (w ++ concat (map encode_frames (updates (s_subs st) [o]))).
Proof.
  intros Hh Hc Hns Hlen. destruct st as [peers subs]. cbn [s_peers s_subs] in *.
  assert (Hnop : forall ps, (forall p, pget k peers = Some p -> pget k ps = Some p) -> healthy k ps (w ++ [])).
  { intros ps A. rewrite app_nil_r. destruct Hh as (p & Hp & Hh). exists p. split; [apply A; exact Hp|exact Hh]. }
  destruct o as [j|j a|j l|t|t]; cbn [sstep fst snd s_peers s_subs updates] in *.
  - apply Hnop. intros p Hp. rewrite pget_app, Hp. reflexivity.
  - apply Hnop. intros p Hp. apply N.eqb_neq in Hc. rewrite pget_retr_other; assumption.
  - apply Hnop. intros p Hp. apply N.eqb_neq in Hc. rewrite pget_retr_other; assumption.
  - destruct (has t subs); [apply Hnop; auto|].
    destruct (bcast peers (encode_frames (sub_msg Gen.sub_op_sub t))) as [rs ps] eqn:Eb.
    cbn [fst snd s_peers map concat] in *. rewrite app_nil_r.
    exact (bcast_healthy _ _ _ _ _ _ _ Eb Hh (Hns _ eq_refl) (Hlen t (or_introl eq_refl))).
  - destruct (has t subs); cbn [negb] in *; [|apply Hnop; auto].
    destruct (bcast peers (encode_frames (sub_msg Gen.sub_op_unsub t))) as [rs ps] eqn:Eb.
    cbn [fst snd s_peers map concat] in *. rewrite app_nil_r.
    exact (bcast_healthy _ _ _ _ _ _ _ Eb Hh (Hns _ eq_refl) (Hlen t (or_intror eq_refl))).
Qed.

Lemma srun_healthy ops : forall st rs st' k w, srun st ops = (rs, st') -> healthy k (s_peers st) w ->
  (forall o, In o ops -> concerns_peer k o = false) ->
  (forall r, In r rs -> match r with BStall _ => False | _ => True end) ->
  (forall t : bytes, In (SSub t) ops \/ In (SUnsub t) ops -> lenN t < 2 ^ 62) ->
  healthy k (s_peers st') (w ++ concat (map encode_frames (updates (s_subs st) ops))).
Proof.
  induction ops as [|o ops IH]; intros st rs st' k w Hrun Hh Hc Hns Hlen; cbn [srun] in Hrun.
  - inversion Hrun; subst. cbn [updates map concat]. rewrite app_nil_r. exact Hh.
  - pose proof (sstep_healthy st o k w Hh (Hc o (or_introl eq_refl))) as Hh1. rewrite updates_cons.
    destruct (sstep st o) as [r st1]; destruct (srun st1 ops) as [rs1 st2] eqn:Erun; inversion Hrun; subst rs st2;
      cbn [fst snd] in *.
    rewrite map_app, concat_app, app_assoc. apply (IH st1 rs1 st' k _ Erun).
    + apply Hh1.
      * intros x ->. apply Hns. left. reflexivity.
      * intros t [->| ->]; apply Hlen; [left|right]; left; reflexivity.
    + intros o' Ho'. apply Hc. right. exact Ho'.
    + intros r0 Hr0. apply Hns. apply in_app_iff. right. exact Hr0.
    + intros t [H|H]; apply Hlen; [left|right]; right; exact H.
Qed.

Example dir_example :
  let st0 := {| s_peers := []; s_subs := [] |} in
  let ops := [SAttach 1; SAttach 2; SAttach 3; SPlan 2 [WErr 1]; SSub [65]; SSub [65]; SUnsub [66]; SSub [67]; SUnsub [65]] in
  let '(rs, st) := srun st0 ops in
  rs = [BFirstErr 2 (FlErr 1); BOk; BOk; BOk; BOk] /\
  swire 1 st = [0; 2; 1; 65; 0; 2; 1; 67; 0; 2; 0; 65] /\ swire 3 st = swire 1 st /\
  swire 2 st = swire 1 st.   (* the update whose write failed stayed in the buffer and went out with the next one *)
Proof. vm_compute. repeat split; reflexivity. Qed.

Print Assumptions send_to_touches_only.
Print Assumptions send_to_unknown.
Print Assumptions send_to_ok_whole.
Print Assumptions send_to_err_forgets.
Print Assumptions req_busy_refused.
Print Assumptions req_sent_owes.
Print Assumptions req_err_forgets.
Print Assumptions req_touches_one.
Print Assumptions req_full_round.
Print Assumptions bcast_ids.
Print Assumptions bcast_no_stall.
Print Assumptions unsub_unknown_silent.
Print Assumptions dir_example.
