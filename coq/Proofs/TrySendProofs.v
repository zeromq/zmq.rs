(** [try_send] (Model/TrySend.v) whatever the transport answers: the byte stream is kept whole and in order, the buffer stays
    bounded. *)
From ZV Require Import Model.Codec Model.TrySend Proofs.BytesProofs.

Lemma take_n_eq k b w rest : take_n k b = (w, rest) -> b = w ++ rest.
Proof. intros E. inversion E. symmetry. apply firstn_skipn. Qed.

Lemma take_n_all k b : lenN b <= k -> take_n k b = (b, []).
Proof.
  intros H. unfold take_n, firstnN, skipnN. rewrite N.min_r by exact H.
  unfold lenN. rewrite Nnat.Nat2N.id, firstn_all, skipn_all. reflexivity.
Qed.

Lemma take_n_progress k b : k <> 0 -> b <> [] -> (length (snd (take_n k b)) < length b)%nat.
Proof.
  intros Hk Hb. unfold take_n, skipnN, lenN. cbn [snd]. rewrite skipn_length.
  destruct b; [congruence|]. cbn [length]. lia.
Qed.

(** All the writer's loops do to a sink is move a prefix of the buffer to the end of what is written (and advance
    the transport): bytes are never lost, duplicated or reordered. *)
Definition drains (s s' : sink) : Prop :=
  exists w, k_written s' = k_written s ++ w /\ k_buf s = w ++ k_buf s'.

(** FramedWrite2's start_send: the encoded item is appended to the buffer *)
Definition start_send (s : sink) (enc : bytes) : sink :=
  {| k_buf := k_buf s ++ enc; k_written := k_written s; k_tr := k_tr s |}.

Lemma drains_refl s : drains s s.
Proof. exists []. rewrite app_nil_r. split; reflexivity. Qed.

Lemma drains_tr s tr : drains s {| k_buf := k_buf s; k_written := k_written s; k_tr := tr |}.
Proof. exact (drains_refl s). Qed.

Lemma drains_trans a b c : drains a b -> drains b c -> drains a c.
Proof.
  intros (w & A & B) (v & C & D). exists (w ++ v). rewrite C, A, B, D, !app_assoc. split; reflexivity.
Qed.

Lemma drains_take k s tr w rest : take_n k (k_buf s) = (w, rest) ->
  drains s {| k_buf := rest; k_written := k_written s ++ w; k_tr := tr |}.
Proof. intros E. exists w. split; [reflexivity|]. exact (take_n_eq _ _ _ _ E). Qed.

Lemma drains_start_send s s' enc : drains s s' -> drains (start_send s enc) (start_send s' enc).
Proof. intros (w & A & B). exists w. cbn [start_send k_written k_buf]. rewrite B, app_assoc. split; [exact A|reflexivity]. Qed.

Lemma drains_stream s s' : drains s s' -> k_written s' ++ k_buf s' = k_written s ++ k_buf s.
Proof. intros (w & A & B). rewrite A, B, app_assoc. reflexivity. Qed.

Lemma drains_len s s' : drains s s' -> lenN (k_buf s') <= lenN (k_buf s).
Proof. intros (w & A & B). rewrite B, lenN_app. lia. Qed.

(** for every fuel, here and for [poll_flush]: nothing below depends on the model's fuel being enough *)
Lemma poll_ready_spec fuel : forall s r s', poll_ready fuel s = (r, s') ->
  drains s s' /\ match r with Some r => r <> TsOk | None => lenN (k_buf s') < Gen.hwm end.
Proof.
  induction fuel as [|f IH]; intros s r s' H; cbn [poll_ready] in H.
  - inversion H. split; [apply drains_refl|discriminate].
  - destruct (N.ltb_spec (lenN (k_buf s)) Gen.hwm); [inversion H; subst; split; [apply drains_refl|assumption]|].
    destruct (next_ans (k_tr s)) as [a tr].
    destruct a as [k| | |e]; try (inversion H; split; [apply drains_tr|discriminate]).
    destruct (k =? 0); [inversion H; split; [apply drains_tr|discriminate]|].
    destruct (take_n k (k_buf s)) as [w rest] eqn:E. apply IH in H as [D P].
    split; [exact (drains_trans _ _ _ (drains_take _ _ _ _ _ E) D)|exact P].
Qed.

Lemma poll_flush_drains fuel : forall s, drains s (poll_flush fuel s).
Proof.
  induction fuel as [|f IH]; intros s; cbn [poll_flush]; [apply drains_refl|].
  destruct (k_buf s) eqn:Eb; [apply drains_refl|]. rewrite <- Eb.
  destruct (next_ans (k_tr s)) as [a tr]. destruct a as [k| | |e]; try apply drains_tr.
  destruct (k =? 0); [apply drains_tr|].
  destruct (take_n k (k_buf s)) as [w rest] eqn:E.
  exact (drains_trans _ _ _ (drains_take _ _ _ _ _ E) (IH _)).
Qed.

(** one try_send, seen from the sink into which an accepted message has been fed: a refused message is dropped whole *)
Lemma try_send_drains s enc r s' : try_send s enc = (r, s') ->
  drains (start_send s (match r with TsOk => enc | _ => [] end)) s'.
Proof.
  unfold try_send. destruct (poll_ready (S (length (k_buf s))) s) as [[r0|] s1] eqn:E; intros H; apply pair_equal_spec in H as [<- <-];
    apply poll_ready_spec in E as [D P].
  - destruct D as (w & A & B). exists w. cbn [start_send k_written k_buf]. split; [exact A|].
    destruct r0; [congruence| | |]; rewrite app_nil_r; exact B.
  - exact (drains_trans _ _ _ (drains_start_send _ _ enc D) (poll_flush_drains _ _)).
Qed.

Theorem try_send_stream s enc r s' : try_send s enc = (r, s') ->
  k_written s' ++ k_buf s' = (k_written s ++ k_buf s) ++ (match r with TsOk => enc | _ => [] end).
Proof. intros H. rewrite (drains_stream _ _ (try_send_drains _ _ _ _ H)). apply app_assoc. Qed.

Theorem try_send_bounded s enc r s' M : try_send s enc = (r, s') ->
  lenN enc <= M -> lenN (k_buf s) < Gen.hwm + M -> lenN (k_buf s') < Gen.hwm + M.
Proof.
  unfold try_send. destruct (poll_ready (S (length (k_buf s))) s) as [[r0|] s1] eqn:E; intros H Hm Hb; apply pair_equal_spec in H as [<- <-];
    apply poll_ready_spec in E as [D P].
  - apply drains_len in D. lia.
  - pose proof (drains_len _ _ (poll_flush_drains (S (length (k_buf s1 ++ enc))) (start_send s1 enc))) as L.
    unfold start_send in L. cbn [k_buf] in L |- *. rewrite lenN_app in L. lia.
Qed.

Theorem try_sends_stream encs : forall s rs s', try_sends s encs = (rs, s') ->
  k_written s' ++ k_buf s' = (k_written s ++ k_buf s) ++ concat (accepted rs encs).
Proof.
  induction encs as [|e t IH]; intros s rs s' H; cbn [try_sends] in H.
  - inversion H; subst. cbn. rewrite app_nil_r. reflexivity.
  - destruct (try_send s e) as [r s1] eqn:E1. destruct (try_sends s1 t) as [rt s2] eqn:E2.
    inversion H; subst; clear H.
    rewrite (IH _ _ _ E2), (try_send_stream _ _ _ _ E1).
    destruct r; cbn [accepted concat]; rewrite <- ?app_assoc, ?app_nil_r, ?app_nil_l; reflexivity.
Qed.

Theorem try_sends_bounded encs M : Forall (fun e => lenN e <= M) encs -> forall s rs s',
  try_sends s encs = (rs, s') -> lenN (k_buf s) < Gen.hwm + M -> lenN (k_buf s') < Gen.hwm + M.
Proof.
  induction encs as [|e t IH]; intros Hall s rs s' H Hb; cbn [try_sends] in H.
  - inversion H; subst; assumption.
  - inversion Hall as [|? ? He Ht]; subst.
    destruct (try_send s e) as [r s1] eqn:E1. destruct (try_sends s1 t) as [rt s2] eqn:E2.
    inversion H; subst; clear H.
    eapply IH; [exact Ht|exact E2|]. eapply try_send_bounded; eassumption.
Qed.

(** The transport that takes whatever it is offered in one write, as long as that is less than [2 ^ 63] bytes (more than
    a Rust buffer can hold); the same object as [RrSend.accepting_tr]. *)
Definition accepting : transport := {| t_plan := []; t_dflt := Wrote (2 ^ 63) |}.

Theorem accepting_misses_none s enc : k_tr s = accepting -> k_buf s = [] -> lenN enc < 2 ^ 63 ->
  exists s', try_send s enc = (TsOk, s') /\ k_buf s' = [] /\ k_tr s' = accepting /\ k_written s' = k_written s ++ enc.
Proof.
  intros Ht Hb Hl. unfold try_send. rewrite Hb. cbn [length poll_ready]. rewrite Hb. cbn [lenN length N.of_nat].
  change (0 <? Gen.hwm) with true. cbv iota. rewrite Hb. cbn [app k_buf].
  destruct enc as [|b0 bt]; cbn [length poll_flush k_buf].
  - exists {| k_buf := []; k_written := k_written s; k_tr := k_tr s |}. rewrite app_nil_r. auto.
  - rewrite Ht. cbn [k_tr next_ans accepting t_plan t_dflt]. change (2 ^ 63 =? 0) with false. cbv iota.
    rewrite take_n_all by lia. eexists. split; [reflexivity|]. auto.
Qed.
