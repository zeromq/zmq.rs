(** Decoding what the encoder wrote (C01 "decoding those bytes with the library yields the identical
    message") and handshake totality (C03), on top of the decoder theorems. *)
From ZV Require Import Base.Bytes Base.Res Spec.Stream Model.Codec Model.Handshake
  Proofs.BytesProofs Proofs.CodecEnc Proofs.Decoder Proofs.HandshakeProofs.

Lemma next_frame_sized fl body rest :
  let k := if N.testbit fl 1 then 8 else 1 in
  lenN body < 256 ^ k ->
  next_frame (fl :: be (N.to_nat k) (lenN body) ++ body ++ rest) =
    Some ({| sf_cmd := N.testbit fl 2; sf_more := N.testbit fl 0; sf_body := body |}, rest).
Proof.
  intros k Hl. rewrite next_frame_cons. fold k. rewrite <- (N2Nat.id k) in Hl.
  destruct (sized_field (N.to_nat k) body rest Hl) as (A & B & C & D). cbv zeta in *.
  rewrite N2Nat.id in A. rewrite A, B, C, D. reflexivity.
Qed.

Lemma next_frame_encode more f rest : frame_ok f ->
  next_frame (encode_frame more f ++ rest) = Some ({| sf_cmd := false; sf_more := more; sf_body := f |}, rest).
Proof.
  intros [_ Hl]. unfold encode_frame. rewrite frame_hdr_eq, <- app_assoc.
  destruct (N.ltb_spec 255 (lenN f)); destruct more; cbn [app]; apply next_frame_sized;
    (exact Hl || (apply N.le_lt_trans with 255; [assumption|reflexivity])).
Qed.

Lemma spec_frames_encode_app m : m <> [] -> Forall frame_ok m ->
  forall fuel acc rest, (length m <= fuel)%nat ->
  spec_frames fuel acc (encode_frames m ++ rest) =
    OItem (IMessage (acc_app acc m)) :: spec_frames (fuel - length m) None rest.
Proof.
  induction m as [|f m IH]; [congruence|]. intros _ Hall fuel acc rest Hfuel.
  inversion Hall as [|? ? Hf Hm]; subst. cbn [length] in Hfuel.
  destruct fuel as [|fuel]; [lia|].
  rewrite encode_frames_cons, <- app_assoc. cbn [spec_frames length Nat.sub].
  rewrite next_frame_encode by assumption. cbn [sf_cmd sf_more sf_body].
  destruct m as [|g m']; cbn [has_more].
  - rewrite Nat.sub_0_r. destruct acc; reflexivity.
  - rewrite IH by (congruence || assumption || lia).
    destruct acc as [v|]; cbn [acc_app]; [rewrite <- app_assoc|]; reflexivity.
Qed.

Lemma spec_items_greeting g rest :
  spec_items (encode_greeting g ++ rest) =
    OItem (IGreeting g) :: spec_frames (S (length (encode_greeting g ++ rest))) None rest.
Proof.
  assert (length (encode_greeting g) = 64%nat /\ nth 0 (encode_greeting g) 0 = 255) as [HG H0]
    by (destruct g as [a b [] []]; split; reflexivity).
  unfold spec_items. rewrite lenN_app.
  destruct (N.ltb_spec (lenN (encode_greeting g) + lenN rest) 64); [unfold lenN in *; lia|].
  rewrite app_nth1, H0 by lia. change (negb (255 =? 255)) with false. cbv iota.
  rewrite firstn_app_exact, skipn_app_exact, greeting_roundtrip by (symmetry; exact HG). reflexivity.
Qed.

Theorem chunks_eq_spec chunks : lib_items chunks false = spec_items (concat chunks).
Proof. rewrite chunks_eq_whole. apply whole_eq_spec_all. Qed.

Lemma lib_items_head_no_panic chunks eof o rest p : lib_items chunks eof = o :: rest -> o <> OPanic p.
Proof.
  intros H. pose proof (lib_never_panics chunks eof) as F. rewrite H in F.
  inversion F; subst. auto.
Qed.

(** C03: the inbound handshake never crashes (here because it rests on [lib_never_panics]) *)
Theorem verdict_never_crashes local chunks eof p : handshake_verdict local chunks eof <> Crash p.
Proof.
  unfold handshake_verdict. pose proof (lib_never_panics chunks eof) as F.
  destruct (lib_items chunks eof) as [|o1 rest]; [discriminate|].
  inversion F as [|? ? H1 Hrest]; subst.
  destruct o1 as [[g|ps|m]|e|q|]; cbn [greet_decision]; try discriminate.
  - destruct (negotiate_cases g) as [-> | ->]; [|discriminate].
    destruct rest as [|o2 rest2]; [discriminate|].
    inversion Hrest as [|? ? H2 _]; subst.
    destruct (ready_decision local (Some o2)) as [i|e|q] eqn:E; try discriminate.
    exfalso. eapply ready_decision_total; [|exact E]. intros q' [= ->]. eapply H2. reflexivity.
  - exfalso. eapply H1. reflexivity.
Qed.
