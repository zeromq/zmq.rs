(** C04: compatibility table and admission decision. *)
From ZV Require Import Base.Bytes Base.Res Spec.Compat Model.Codec Model.Handshake Proofs.BytesProofs.

Definition sname_of (s : stype) : sname :=
  match s with
  | PAIR => nPAIR | PUB => nPUB | SUB => nSUB | REQ => nREQ | REP => nREP | DEALER => nDEALER
  | ROUTER => nROUTER | PULL => nPULL | PUSH => nPUSH | XPUB => nXPUB | XSUB => nXSUB | STREAM => nSTREAM
  end.

Lemma all_stypes_complete s : In s all_stypes.
Proof. destruct s; cbn; tauto. Qed.

Definition compat_table_ok : bool :=
  forallb (fun a => forallb (fun b =>
    match compatible a b with
    | Ok v => Bool.eqb v (rfc_compat (sname_of a) (sname_of b))
    | _ => false
    end) all_stypes) all_stypes.

Lemma compat_table_ok_true : compat_table_ok = true.
Proof. vm_compute. reflexivity. Qed.

Theorem compat_is_rfc a b : compatible a b = Ok (rfc_compat (sname_of a) (sname_of b)).
Proof.
  pose proof compat_table_ok_true as H. unfold compat_table_ok in H.
  rewrite forallb_forall in H. specialize (H a (all_stypes_complete a)).
  rewrite forallb_forall in H. specialize (H b (all_stypes_complete b)).
  destruct (compatible a b) as [v|e|p]; try discriminate.
  apply eqb_prop in H. subst. reflexivity.
Qed.

Theorem rfc_compat_symmetric x y : rfc_compat x y = rfc_compat y x.
Proof. destruct x, y; reflexivity. Qed.

Theorem compat_total a b : exists v, compatible a b = Ok v.
Proof. eexists. apply compat_is_rfc. Qed.

Theorem stype_of_name_name s : stype_of_name (stype_name s) = Some s.
Proof. destruct s; reflexivity. Qed.

Lemma stype_of_name_sound n s : stype_of_name n = Some s -> n = stype_name s.
Proof.
  unfold stype_of_name. intros H. apply find_some in H as [_ H].
  apply bytes_eqb_eq in H. congruence.
Qed.

Theorem parse_mech_iff v m :
  parse_mech v = Ok m <-> until_nul v = mech_name m.
Proof.
  unfold parse_mech. split.
  - destruct (bytes_eqb_spec (until_nul v) ascii_NULL) as [E|_]; [intros [= <-]; exact E|].
    destruct (bytes_eqb_spec (until_nul v) ascii_PLAIN) as [E|_]; [intros [= <-]; exact E|].
    destruct (bytes_eqb_spec (until_nul v) ascii_CURVE) as [E|_]; [intros [= <-]; exact E|discriminate].
  - intros ->. destruct m; reflexivity.
Qed.

Theorem parse_greeting_iff v g :
  parse_greeting v = Ok g <->
  lenN v = 64 /\ nth 0 v 0 = 255 /\ nth 9 v 0 = 127 /\
  parse_mech (firstn 20 (skipn 12 v)) = Ok (g_mech g) /\
  g_major g = nth 10 v 0 /\ g_minor g = nth 11 v 0 /\ g_server g = (nth 32 v 0 =? 1).
Proof.
  unfold parse_greeting, slice.
  change Gen.gr_parse_len with 64. change Gen.gr_parse_sig0 with 255. change Gen.gr_parse_sig9 with 127.
  change (N.to_nat (Gen.gr_parse_mech_hi - Gen.gr_parse_mech_lo)) with 20%nat.
  change (N.to_nat Gen.gr_parse_mech_lo) with 12%nat.
  change (N.to_nat Gen.gr_parse_major_off) with 10%nat. change (N.to_nat Gen.gr_parse_minor_off) with 11%nat.
  change (N.to_nat Gen.gr_parse_server_off) with 32%nat. change Gen.gr_parse_server_val with 1.
  split.
  - destruct (N.eqb_spec (lenN v) 64); [|discriminate].
    destruct (N.eqb_spec (nth 0 v 0) 255); [|discriminate].
    destruct (N.eqb_spec (nth 9 v 0) 127); [|discriminate]. cbn [negb orb andb].
    destruct (parse_mech _); [|discriminate..]. intros [= <-]. cbn. auto 8.
  - intros (H1 & H2 & H3 & Hm & Ha & Hb & Hs). rewrite H1, H2, H3, Hm, <- Ha, <- Hb, <- Hs.
    destruct g. reflexivity.
Qed.

Theorem negotiate_iff g : negotiate g = Ok tt <-> (3 < g_major g \/ (g_major g = 3 /\ 0 <= g_minor g)).
Proof.
  unfold negotiate, version_ge. change Gen.gr_default_major with 3. change Gen.gr_default_minor with 0.
  destruct (N.ltb_spec 3 (g_major g)); destruct (N.eqb_spec (g_major g) 3); destruct (N.leb_spec 0 (g_minor g));
    cbn; split; intros; try discriminate; try lia; reflexivity.
Qed.

Theorem negotiate_cases g : negotiate g = Ok tt \/ negotiate g = Err EUnsupportedVersion.
Proof. unfold negotiate. destruct (version_ge _ _ _ _); auto. Qed.

Lemma peer_identity_ok v i : peer_identity v = Ok i <->
  match v with
  | None => i = IdFresh
  | Some b => lenN b <= 255 /\ i = (if lenN b =? 0 then IdFresh else IdAnnounced b)
  end.
Proof.
  destruct v as [[|x b]|]; cbn [peer_identity].
  - split; [intros [= <-]; split; [cbn; lia|reflexivity]|intros [_ ->]; reflexivity].
  - change Gen.max_id with 255. rewrite lenN_cons.
    destruct (N.eqb_spec (1 + lenN b) 0); [lia|].
    destruct (N.ltb_spec 255 (1 + lenN b)); split; try discriminate; try lia.
    + intros [= <-]. split; [lia|reflexivity].
    + intros [_ ->]. reflexivity.
  - split; congruence.
Qed.

Lemma peer_identity_no_panic v p : peer_identity v <> Panic p.
Proof. destruct v as [[|x b]|]; cbn [peer_identity]; try discriminate. destruct (_ <? _); discriminate. Qed.

(** Admission decision on a READY: accepted iff Socket-Type is present, one of the twelve names,
    RFC-compatible with the local type, and the Identity (if any) is at most 255 bytes; the
    identity registered is the announced one, or fresh when absent or empty. *)
Definition ready_valid (local : stype) (props : list (bytes * bytes)) (i : ident) : Prop :=
  exists other,
    assoc ascii_Socket_Type props = Some (stype_name other) /\
    rfc_compat (sname_of local) (sname_of other) = true /\
    match assoc ascii_Identity props with
    | None => i = IdFresh
    | Some b => lenN b <= 255 /\ i = (if lenN b =? 0 then IdFresh else IdAnnounced b)
    end.

Theorem ready_decision_iff local props i :
  ready_decision local (Some (OItem (ICommand props))) = Ok i <-> ready_valid local props i.
Proof.
  unfold ready_decision, ready_valid.
  destruct (assoc ascii_Socket_Type props) as [s|]; [|split; [discriminate|intros (o & [=] & _)]].
  destruct (stype_of_name s) as [other|] eqn:Eo.
  - apply stype_of_name_sound in Eo as ->. rewrite compat_is_rfc. split.
    + destruct (peer_identity _) as [j| |] eqn:Ep; try discriminate.
      destruct (rfc_compat _ _) eqn:Ec; [|discriminate].
      intros [= <-]. apply peer_identity_ok in Ep. eauto.
    + intros (o & [= Ho] & Hc & Hi). apply peer_identity_ok in Hi. rewrite Hi.
      apply (f_equal stype_of_name) in Ho. rewrite !stype_of_name_name in Ho. injection Ho as ->.
      rewrite Hc. reflexivity.
  - split; [discriminate|]. intros (o & [= ->] & _). rewrite stype_of_name_name in Eo. discriminate.
Qed.

Theorem ready_decision_non_command local o :
  (forall props, o <> Some (OItem (ICommand props))) ->
  (exists e, ready_decision local o = Err e) \/ (exists p, o = Some (OPanic p)).
Proof.
  intros H. destruct o as [[[g|props|m]|e|p|]|]; unfold ready_decision; eauto.
  exfalso. eapply H. reflexivity.
Qed.

Theorem ready_decision_total local o : (forall p, o <> Some (OPanic p)) ->
  forall p, ready_decision local o <> Panic p.
Proof.
  intros Hn p. destruct o as [[[g|props|m]|e|q|]|]; unfold ready_decision; try discriminate;
    [|intros _; exact (Hn q eq_refl)].
  destruct (assoc _ props); [|discriminate]. destruct (stype_of_name _); [|discriminate].
  pose proof (peer_identity_no_panic (assoc ascii_Identity props)) as X. rewrite compat_is_rfc.
  destruct (peer_identity _); [destruct (rfc_compat _ _)| |]; try discriminate.
  intros [= <-]. exact (X _ eq_refl).
Qed.

Lemma remove_key_In k x l : In x (remove_key k l) <-> In x l /\ x <> k.
Proof.
  induction l as [|y l IH]; cbn [remove_key In]; [tauto|].
  destruct (bytes_eqb_spec y k) as [->|Hne]; cbn [In]; rewrite IH; intuition congruence.
Qed.

Lemma remove_key_other k x l : x <> k -> (In x (remove_key k l) <-> In x l).
Proof. intros Hne. rewrite remove_key_In. tauto. Qed.

Local Notation occ := (count_occ (list_eq_dec N.eq_dec)).

Lemma count_occ_remove_key k l : occ (remove_key k l) k = 0%nat.
Proof. apply count_occ_not_In. rewrite remove_key_In. tauto. Qed.

Lemma count_occ_remove_key_other k x l : x <> k -> occ (remove_key k l) x = occ l x.
Proof.
  intros Hne. induction l as [|y l IH]; cbn; [reflexivity|].
  destruct (bytes_eqb y k) eqn:E.
  - apply bytes_eqb_eq in E. subst y. destruct (list_eq_dec N.eq_dec k x); [congruence|assumption].
  - cbn. destruct (list_eq_dec N.eq_dec y x); rewrite IH; reflexivity.
Qed.

Lemma occ_snoc_same l k : occ (l ++ [k]) k = S (occ l k).
Proof. rewrite count_occ_snoc, bytes_eqb_refl. reflexivity. Qed.

Lemma occ_snoc_other l k x : x <> k -> occ (l ++ [k]) x = occ l x.
Proof. intros H. rewrite count_occ_snoc. destruct (bytes_eqb_spec k x); [congruence|reflexivity]. Qed.

Theorem register_once has_rr has_fq k t :
  occ (t_peers (register has_rr has_fq k t)) k = 1%nat /\
  (has_fq = true -> occ (t_fq (register has_rr has_fq k t)) k = 1%nat) /\
  (has_rr = true -> ~ In k (t_rr t) -> occ (t_rr (register has_rr has_fq k t)) k = 1%nat) /\
  (forall x, x <> k ->
     occ (t_peers (register has_rr has_fq k t)) x = occ (t_peers t) x /\
     occ (t_rr (register has_rr has_fq k t)) x = occ (t_rr t) x /\
     occ (t_fq (register has_rr has_fq k t)) x = occ (t_fq t) x).
Proof.
  unfold register; cbn [t_peers t_rr t_fq]. repeat split.
  - rewrite occ_snoc_same, count_occ_remove_key. reflexivity.
  - intros ->. rewrite occ_snoc_same, count_occ_remove_key. reflexivity.
  - intros -> Hn. rewrite occ_snoc_same, (proj1 (count_occ_not_In _ _ _) Hn). reflexivity.
  - rewrite occ_snoc_other by assumption. apply count_occ_remove_key_other. assumption.
  - destruct has_rr; [apply occ_snoc_other; assumption|reflexivity].
  - destruct has_fq; [|reflexivity]. rewrite occ_snoc_other by assumption.
    apply count_occ_remove_key_other. assumption.
Qed.

Theorem rejected_is_inert has_rr has_fq fresh a t :
  (forall i, a <> Accept i) -> connection_event has_rr has_fq fresh a t = t.
Proof. intros H. destruct a as [i| | |]; try reflexivity. exfalso. eapply H. reflexivity. Qed.

Theorem verdict_iff local chunks eof i :
  handshake_verdict local chunks eof = Accept i <->
  exists g props rest,
    lib_items chunks eof = OItem (IGreeting g) :: OItem (ICommand props) :: rest /\
    negotiate g = Ok tt /\ ready_valid local props i.
Proof.
  unfold handshake_verdict. split.
  - destruct (lib_items chunks eof) as [|o1 rest]; [discriminate|].
    destruct o1 as [[g|ps|m]|e|p|]; cbn [greet_decision]; try discriminate.
    destruct (negotiate g) as [[]|e|p] eqn:En; try discriminate.
    destruct rest as [|o2 rest2]; [discriminate|].
    destruct (ready_decision local (Some o2)) as [j|e|p] eqn:Er; try discriminate.
    intros [= <-].
    destruct o2 as [[g2|props|m]|e|p|]; try (cbn in Er; discriminate).
    exists g, props, rest2. split; [reflexivity|]. split; [exact En|].
    apply ready_decision_iff. exact Er.
  - intros (g & props & rest & Hl & Hn & Hv). rewrite Hl. cbn [greet_decision]. rewrite Hn.
    apply ready_decision_iff in Hv. rewrite Hv. reflexivity.
Qed.

Theorem verdict_cases local chunks eof :
  (exists i, handshake_verdict local chunks eof = Accept i) \/ (exists e, handshake_verdict local chunks eof = Reject e) \/
  (exists p, handshake_verdict local chunks eof = Crash p) \/ handshake_verdict local chunks eof = Incomplete.
Proof. destruct (handshake_verdict local chunks eof); eauto. Qed.
