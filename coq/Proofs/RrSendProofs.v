(** Theorems about round-robin sending under per-connection write scripts (Model/RrSend.v). *)
From ZV Require Import Model.Codec Model.TrySend Model.RrSend Proofs.BytesProofs Proofs.TrySendProofs.
From ZV Require Proofs.WorldBasics.
Local Open Scope N_scope.

(** for every fuel: nothing below depends on the model's fuel being enough *)
Lemma flush_all_drains fuel : forall s r s', flush_all fuel s = (r, s') ->
  drains s s' /\ (r = FlOk -> k_buf s' = []).
Proof.
  induction fuel as [|f IH]; intros s r s' H; cbn [flush_all] in H.
  - inversion H. split; [apply drains_refl|discriminate].
  - destruct (k_buf s) eqn:Eb; [inversion H; subst; split; [apply drains_refl|auto]|]. rewrite <- Eb in H.
    destruct (next_ans (k_tr s)) as [a tr]. destruct a as [k| | |e].
    + destruct (k =? 0); [inversion H; split; [apply drains_tr|discriminate]|].
      destruct (take_n k (k_buf s)) as [w rest] eqn:E. apply IH in H as [D Z].
      split; [exact (drains_trans _ _ _ (drains_take _ _ _ _ _ E) D)|exact Z].
    + inversion H. split; [apply drains_tr|discriminate].
    + destruct (t_plan (k_tr s)); [inversion H; split; [apply drains_refl|discriminate]|].
      apply IH in H as [D Z]. split; [exact (drains_trans _ _ _ (drains_tr _ _) D)|exact Z].
    + inversion H. split; [apply drains_tr|discriminate].
Qed.

Lemma sink_send_drains s enc r s' : sink_send s enc = (r, s') ->
  drains (start_send s enc) s' /\ (r = FlOk -> k_buf s' = []).
Proof. apply flush_all_drains. Qed.

Lemma sink_send_ok_whole s enc s' : sink_send s enc = (FlOk, s') -> k_buf s = [] ->
  k_written s' = k_written s ++ enc /\ k_buf s' = [].
Proof.
  intros H Hb. apply sink_send_drains in H as [D Z]. specialize (Z eq_refl).
  apply drains_stream in D. cbn [start_send k_written k_buf] in D. rewrite Z, Hb, app_nil_r in D. split; assumption.
Qed.

(** [accepting_tr] takes [2 ^ 63] bytes a write: a shorter message goes out in the one write *)
Lemma sink_send_accepting s enc : k_tr s = accepting_tr -> k_buf s = [] -> lenN enc < 2 ^ 63 ->
  exists s', sink_send s enc = (FlOk, s') /\ k_buf s' = [] /\ k_tr s' = accepting_tr /\
    k_written s' = k_written s ++ enc.
Proof.
  intros Ht Hb Hl. unfold sink_send. cbv zeta. rewrite Hb, Ht. cbn [app k_buf k_tr accepting_tr t_plan length Nat.add].
  destruct enc as [|b0 bt]; cbn [length flush_all k_buf].
  - eexists. split; [reflexivity|]. cbn [k_buf k_tr k_written]. rewrite app_nil_r. auto.
  - cbn [k_tr k_written next_ans accepting_tr t_plan t_dflt]. change (2 ^ 63 =? 0) with false. cbv iota.
    rewrite take_n_all by lia. cbn [Nat.add flush_all k_buf]. eexists. split; [reflexivity|]. auto.
Qed.

Theorem flush_all_ok_empty : forall fuel s s', flush_all fuel s = (FlOk, s') -> k_buf s' = [].
Proof. intros fuel s s' H. apply flush_all_drains in H as [_ Z]. auto. Qed.

Lemma pget_id k l p : pget k l = Some p -> p_id p = k.
Proof.
  induction l as [|a t IH]; cbn [pget]; [discriminate|].
  destruct (N.eqb_spec (p_id a) k) as [E|_]; [|exact IH]. intros H; injection H as <-. exact E.
Qed.

Lemma pget_In k l p : pget k l = Some p -> In p l.
Proof.
  induction l as [|a t IH]; cbn [pget]; [discriminate|].
  destruct (p_id a =? k); [intros H; inversion H; left; reflexivity|intros H; right; auto].
Qed.

Lemma pget_none_iff k l : pget k l = None <-> ~ In k (map p_id l).
Proof.
  induction l as [|a t IH]; cbn [pget map In]; [tauto|].
  destruct (N.eqb_spec (p_id a) k) as [E|E]; [|tauto].
  split; [discriminate|]. intros H; exfalso; apply H; left; exact E.
Qed.

Lemma pget_some_ids k l p : pget k l = Some p -> In k (map p_id l).
Proof.
  intros H. destruct (in_dec N.eq_dec k (map p_id l)) as [Hi|Hn]; [exact Hi|].
  apply pget_none_iff in Hn. congruence.
Qed.

Lemma pget_app k l l' : pget k (l ++ l') = match pget k l with Some p => Some p | None => pget k l' end.
Proof.
  induction l as [|a t IH]; cbn [app pget]; [reflexivity|]. destruct (p_id a =? k); [reflexivity|exact IH].
Qed.

Lemma pget_pset j k s l : pget j (pset k s l) =
  if j =? k then option_map (fun _ => {| p_id := k; p_sink := s |}) (pget k l) else pget j l.
Proof.
  induction l as [|a t IH]; cbn [pset pget]; [destruct (j =? k); reflexivity|].
  destruct (N.eqb_spec (p_id a) k) as [E|E]; cbn [pget p_id option_map].
  - rewrite E, (N.eqb_sym k j). destruct (j =? k); reflexivity.
  - rewrite IH. destruct (N.eqb_spec (p_id a) j) as [E2|_]; [|reflexivity].
    destruct (N.eqb_spec j k); [congruence|reflexivity].
Qed.

Lemma ids_pset k s l : map p_id (pset k s l) = map p_id l.
Proof.
  induction l as [|a t IH]; [reflexivity|]. cbn [pset].
  destruct (N.eqb_spec (p_id a) k) as [E|_]; cbn [map p_id]; [rewrite E|rewrite IH]; reflexivity.
Qed.

Lemma In_pset k s l p : In p (pset k s l) -> p = {| p_id := k; p_sink := s |} \/ In p l.
Proof.
  induction l as [|a t IH]; cbn [pset In]; [tauto|].
  destruct (p_id a =? k); cbn [In]; intros [H|H]; auto. apply IH in H. tauto.
Qed.

Lemma ids_retr k f l : map p_id (retr k f l) = map p_id l.
Proof. unfold retr. destruct (pget k l); [apply ids_pset|reflexivity]. Qed.

Lemma pget_pdel_other k j l : j <> k -> pget j (pdel k l) = pget j l.
Proof.
  intros Hn. induction l as [|a t IH]; [reflexivity|]. cbn [pdel pget].
  destruct (N.eqb_spec (p_id a) k) as [E|_]; cbn [pget]; [|rewrite IH; reflexivity].
  destruct (N.eqb_spec (p_id a) j); [congruence|reflexivity].
Qed.

Lemma pdel_none k l : pget k l = None -> pdel k l = l.
Proof.
  induction l as [|a t IH]; cbn [pget pdel]; [reflexivity|].
  destruct (p_id a =? k); [discriminate|]. intros H. rewrite IH by exact H. reflexivity.
Qed.

Lemma ids_pdel k l : NoDup (map p_id l) -> map p_id (pdel k l) = World.delN k (map p_id l).
Proof.
  induction l as [|a t IH]; cbn [pdel map World.delN filter]; [reflexivity|]. intros Hd.
  apply NoDup_cons_iff in Hd as [Hni Hd].
  destruct (N.eqb_spec (p_id a) k) as [E|_]; cbn [negb map].
  - symmetry. apply filter_all. intros j Hj. destruct (N.eqb_spec j k); [congruence|reflexivity].
  - rewrite IH by exact Hd. reflexivity.
Qed.

Lemma In_ids_pdel k l j : NoDup (map p_id l) -> In j (map p_id (pdel k l)) -> In j (map p_id l) /\ j <> k.
Proof.
  intros Hd Hj. rewrite ids_pdel in Hj by exact Hd. apply filter_In in Hj as [Hj E].
  split; [exact Hj|]. destruct (N.eqb_spec j k); [discriminate|assumption].
Qed.

Lemma NoDup_pdel k l : NoDup (map p_id l) -> NoDup (map p_id (pdel k l)).
Proof. intros Hd. rewrite ids_pdel by exact Hd. apply NoDup_filter. exact Hd. Qed.

Lemma pget_pdel_same k l : NoDup (map p_id l) -> pget k (pdel k l) = None.
Proof. intros Hd. apply pget_none_iff. intros Hi. apply (In_ids_pdel k l k Hd) in Hi. tauto. Qed.

Lemma wire_of_ext j st st' : pget j (r_peers st') = pget j (r_peers st) -> pget j (r_gone st') = pget j (r_gone st) ->
  wire_of j st' = wire_of j st.
Proof. unfold wire_of. intros -> ->. reflexivity. Qed.

Lemma wire_of_live k st p : pget k (r_peers st) = Some p -> wire_of k st = k_written (p_sink p).
Proof. unfold wire_of. intros ->. reflexivity. Qed.

Definition residue (k : N) (st : rstate) : bytes :=
  match pget k (r_peers st) with
  | Some p => k_buf (p_sink p)
  | None => match pget k (r_gone st) with Some p => k_buf (p_sink p) | None => [] end
  end.

(** a write on connection k that returned e and left its writer as s: a completed or abandoned write keeps the peer
    (rotation [keep]), a failed one moves it to the released connections (rotation [drop]).  ROUTER's and REQ's
    sends do the same with other rotations. *)
Definition keeps (e : flush_res) : bool := match e with FlOk | FlStall => true | _ => false end.
Definition res_of (k : N) (e : flush_res) : rr_res :=
  match e with FlOk => ROk k | FlStall => RStall k | e => RErr k e end.
Definition wrote (st : rstate) (k : N) (e : flush_res) (s : sink) (keep drop : list N) : rstate :=
  if keeps e then {| r_peers := pset k s (r_peers st); r_rr := keep; r_gone := r_gone st |}
  else {| r_peers := pdel k (r_peers st); r_rr := drop; r_gone := {| p_id := k; p_sink := s |} :: r_gone st |}.

Definition targets (k : N) (r : rr_res) : bool :=
  match r with ROk j | RErr j _ | RStall j => j =? k | RNoPeer => false end.

Lemma targets_res_of j k e : targets j (res_of k e) = (k =? j).
Proof. destruct e; reflexivity. Qed.

Lemma wrote_frame st k e s keep drop j : j <> k ->
  pget j (r_peers (wrote st k e s keep drop)) = pget j (r_peers st) /\
  pget j (r_gone (wrote st k e s keep drop)) = pget j (r_gone st).
Proof.
  intros Hn. apply N.eqb_neq in Hn as E. unfold wrote. destruct (keeps e); cbn [r_peers r_gone pget p_id].
  - rewrite pget_pset, E. split; reflexivity.
  - rewrite pget_pdel_other, (N.eqb_sym k j), E by exact Hn. split; reflexivity.
Qed.

Lemma wrote_view st k e s keep drop p : NoDup (map p_id (r_peers st)) -> pget k (r_peers st) = Some p ->
  wire_of k (wrote st k e s keep drop) = k_written s /\ residue k (wrote st k e s keep drop) = k_buf s.
Proof.
  intros Hd Hp. unfold wrote, wire_of, residue. destruct (keeps e); cbn [r_peers r_gone].
  - rewrite pget_pset, N.eqb_refl, Hp. split; reflexivity.
  - rewrite (pget_pdel_same _ _ Hd). cbn [pget p_id]. rewrite N.eqb_refl. split; reflexivity.
Qed.

Lemma send_nil st m : r_rr st = [] -> send st m = (RNoPeer, st).
Proof. intros E. unfold send. rewrite E. cbn [length rr_send]. rewrite E. reflexivity. Qed.

Lemma send_dead st m k rest : r_rr st = k :: rest -> pget k (r_peers st) = None ->
  send st m = send {| r_peers := r_peers st; r_rr := rest; r_gone := r_gone st |} m.
Proof. intros E Hk. unfold send. rewrite E. cbn [length rr_send]. rewrite E, Hk. reflexivity. Qed.

Lemma send_live st m k rest p : r_rr st = k :: rest -> pget k (r_peers st) = Some p ->
  send st m = let '(e, s) := sink_send (p_sink p) (encode_frames m) in (res_of k e, wrote st k e s (rest ++ [k]) rest).
Proof.
  intros E Hk. unfold send. rewrite E. cbn [length rr_send]. rewrite E, Hk.
  destruct (sink_send (p_sink p) (encode_frames m)) as [[] s]; reflexivity.
Qed.

Lemma send_post st m r st' : send st m = (r, st') ->
  ((forall j, In j (r_rr st) -> pget j (r_peers st) = None) /\ r = RNoPeer /\
   st' = {| r_peers := r_peers st; r_rr := []; r_gone := r_gone st |}) \/
  exists pre k rest p e s, r_rr st = pre ++ k :: rest /\ (forall j, In j pre -> pget j (r_peers st) = None) /\
    pget k (r_peers st) = Some p /\ sink_send (p_sink p) (encode_frames m) = (e, s) /\
    r = res_of k e /\ st' = wrote st k e s (rest ++ [k]) rest.
Proof.
  destruct st as [peers rr gone]. cbn [r_peers r_rr r_gone]. induction rr as [|k rest IH]; intros H.
  - rewrite send_nil in H by reflexivity. inversion H. left. split; [intros j []|]. auto.
  - destruct (pget k peers) as [p|] eqn:Ep.
    + erewrite send_live in H; [|reflexivity|exact Ep].
      destruct (sink_send (p_sink p) (encode_frames m)) as [e s] eqn:Es. inversion H.
      right. exists [], k, rest, p, e, s. split; [reflexivity|]. split; [intros j []|]. auto.
    + erewrite send_dead in H; [|reflexivity|exact Ep].
      destruct (IH H) as [(Hall & Er & Est)|(pre & k' & rest' & p & e & s & -> & Hpre & Hrest)].
      * left. split; [intros j [<-|Hj]; auto|]. auto.
      * right. exists (k :: pre), k', rest', p, e, s. split; [reflexivity|]. split; [intros j [<-|Hj]; auto|exact Hrest].
Qed.

Lemma send_frame st m r st' j : send st m = (r, st') -> targets j r = false ->
  pget j (r_peers st') = pget j (r_peers st) /\ pget j (r_gone st') = pget j (r_gone st).
Proof.
  intros H Hj.
  apply send_post in H as [(_ & _ & ->)|(pre & k & rest & p & e & s & _ & _ & _ & _ & -> & ->)].
  - split; reflexivity.
  - rewrite targets_res_of in Hj. apply N.eqb_neq in Hj. apply wrote_frame. congruence.
Qed.

Theorem send_touches_one : forall st m r st', send st m = (r, st') -> forall j, targets j r = false ->
  wire_of j st' = wire_of j st /\ pget j (r_peers st') = pget j (r_peers st).
Proof.
  intros st m r st' H j Hj. destruct (send_frame _ _ _ _ _ H Hj) as [A B].
  split; [apply wire_of_ext; assumption|exact A].
Qed.

Lemma wrote_ok_whole st k p enc s keep drop : pget k (r_peers st) = Some p ->
  sink_send (p_sink p) enc = (FlOk, s) -> k_buf (p_sink p) = [] ->
  wire_of k (wrote st k FlOk s keep drop) = wire_of k st ++ enc /\
  exists p', pget k (r_peers (wrote st k FlOk s keep drop)) = Some p' /\ k_buf (p_sink p') = [].
Proof.
  intros Hp Hs Hb. destruct (sink_send_ok_whole _ _ _ Hs Hb) as [Hw Hb'].
  unfold wire_of. cbn [wrote keeps r_peers]. rewrite pget_pset, N.eqb_refl, Hp. cbn [option_map p_sink].
  split; [exact Hw|]. eexists. split; [reflexivity|exact Hb'].
Qed.

Theorem send_ok_whole : forall st m k st', send st m = (ROk k, st') ->
  exists p, pget k (r_peers st) = Some p /\
    (k_buf (p_sink p) = [] ->
       wire_of k st' = wire_of k st ++ encode_frames m /\
       exists p', pget k (r_peers st') = Some p' /\ k_buf (p_sink p') = []).
Proof.
  intros st m k st' H.
  apply send_post in H as [(_ & H & _)|(pre & k0 & rest & p & e & s & _ & _ & Hp & Hs & Hr & ->)]; [discriminate|].
  destruct e; inversion Hr; subst k0. exists p. split; [exact Hp|]. apply wrote_ok_whole; assumption.
Qed.

Theorem send_err_forgets : forall st m k e st', send st m = (RErr k e, st') ->
  NoDup (map p_id (r_peers st)) -> NoDup (r_rr st) ->
  pget k (r_peers st') = None /\ ~ In k (r_rr st') /\
  (forall p, pget k (r_peers st) = Some p -> k_buf (p_sink p) = [] ->
     exists w rest, encode_frames m = w ++ rest /\ wire_of k st' = wire_of k st ++ w).
Proof.
  intros st m k e st' H Hd Hr.
  apply send_post in H as [(_ & H & _)|(pre & k0 & rest & p & e0 & s & Hrr & _ & Hp & Hs & Hk & ->)]; [discriminate|].
  assert (Ek : keeps e0 = false /\ k0 = k) by (destruct e0; inversion Hk; auto). destruct Ek as [Ek ->].
  split; [|split].
  - unfold wrote. rewrite Ek. apply pget_pdel_same. exact Hd.
  - unfold wrote. rewrite Ek. cbn [r_rr]. rewrite Hrr in Hr. apply NoDup_remove_2 in Hr.
    intros Hi. apply Hr. apply in_app_iff. right. exact Hi.
  - intros p0 Hp0 Hb. rewrite Hp in Hp0. inversion Hp0; subst p0.
    apply sink_send_drains in Hs as [(w & Hw & Hbuf) _]. cbn [start_send k_written k_buf] in Hw, Hbuf. rewrite Hb in Hbuf.
    exists w, (k_buf s). split; [exact Hbuf|].
    rewrite (proj1 (wrote_view st k e0 s _ _ p Hd Hp)), (wire_of_live k _ _ Hp). exact Hw.
Qed.

Theorem send_rotation_shrinks : forall st m r st', send st m = (r, st') ->
  (forall j, In j (r_rr st') -> In j (r_rr st)) /\
  (forall k, targets k r = true -> pget k (r_peers st) <> None).
Proof.
  intros st m r st' H.
  apply send_post in H as [(_ & -> & ->)|(pre & k & rest & p & e & s & -> & _ & Hp & _ & -> & ->)].
  - split; [intros j []|discriminate].
  - split.
    + intros j Hj. apply in_app_iff. right. unfold wrote in Hj. destruct (keeps e); cbn [r_rr] in Hj.
      * apply in_app_iff in Hj. cbn [In] in *. tauto.
      * right. exact Hj.
    + intros k0 E. rewrite targets_res_of in E. apply N.eqb_eq in E. subst k0. congruence.
Qed.

Theorem send_stall_keeps_turn : forall st m k st', send st m = (RStall k, st') ->
  pget k (r_peers st') <> None /\
  exists skipped rest, r_rr st = skipped ++ k :: rest /\ r_rr st' = rest ++ [k] /\
    (forall j, In j skipped -> pget j (r_peers st) = None).
Proof.
  intros st m k st' H.
  apply send_post in H as [(_ & H & _)|(pre & k0 & rest & p & e & s & Hrr & Hpre & Hp & _ & Hr & ->)]; [discriminate|].
  destruct e; inversion Hr; subst k0. cbn [wrote keeps r_peers r_rr]. split.
  - rewrite pget_pset, N.eqb_refl, Hp. discriminate.
  - exists pre, rest. auto.
Qed.

Definition all_accepting (st : rstate) : Prop :=
  forall p, In p (r_peers st) -> k_tr (p_sink p) = accepting_tr /\ k_buf (p_sink p) = [].

Theorem rr_rotation_step : forall st m k rest, all_accepting st -> r_rr st = k :: rest ->
  pget k (r_peers st) <> None -> lenN (encode_frames m) < 2 ^ 63 ->
  exists st', send st m = (ROk k, st') /\ r_rr st' = rest ++ [k] /\ all_accepting st' /\
    map p_id (r_peers st') = map p_id (r_peers st).
Proof.
  intros st m k rest Ha Hrr Hk Hl. destruct (pget k (r_peers st)) as [p|] eqn:Ep; [clear Hk|congruence].
  destruct (Ha p (pget_In _ _ _ Ep)) as [Ht Hb].
  destruct (sink_send_accepting _ _ Ht Hb Hl) as (s' & Hs & Hb' & Ht' & _).
  rewrite (send_live st m k rest p Hrr Ep), Hs.
  eexists. split; [reflexivity|]. cbn [wrote keeps r_rr r_peers]. split; [reflexivity|]. split.
  - intros q Hq. apply In_pset in Hq as [->|Hq]; [cbn [p_sink]; auto|apply Ha; exact Hq].
  - apply ids_pset.
Qed.

Definition is_live (st : rstate) (k : N) : bool := match pget k (r_peers st) with Some _ => true | None => false end.

Lemma is_live_In st k : is_live st k = true <-> In k (map p_id (r_peers st)).
Proof.
  unfold is_live. destruct (pget k (r_peers st)) eqn:E.
  - split; [intros _; exact (pget_some_ids _ _ _ E)|reflexivity].
  - apply pget_none_iff in E. split; [discriminate|intros H; destruct (E H)].
Qed.

Lemma is_live_ids st st1 : map p_id (r_peers st1) = map p_id (r_peers st) -> forall k, is_live st1 k = is_live st k.
Proof. intros Hids k. apply eq_true_iff_eq. rewrite !is_live_In, Hids. reflexivity. Qed.

Lemma rrun_cons st o ops rs st' : rrun st (o :: ops) = (rs, st') ->
  exists rs1, rrun (snd (rstep st o)) ops = (rs1, st') /\
    rs = (match fst (rstep st o) with Some x => [x] | None => [] end) ++ rs1.
Proof.
  cbn [rrun]. destruct (rstep st o) as [ro st1]. cbn [fst snd]. destruct (rrun st1 ops) as [rs1 st2].
  intros H. inversion H. exists rs1. split; reflexivity.
Qed.

Lemma rr_round a : forall st b ms, all_accepting st -> r_rr st = a ++ b ->
  length ms = length (filter (is_live st) a) -> Forall (fun m => lenN (encode_frames m) < 2 ^ 63) ms ->
  fst (rrun st (map RSend ms)) = map ROk (filter (is_live st) a) /\
  ((forall k, In k a -> is_live st k = true) -> r_rr (snd (rrun st (map RSend ms))) = b ++ a).
Proof.
  induction a as [|k a IH]; intros st b ms Ha Hrr Hlen Hsm.
  - destruct ms; [|discriminate]. split; [reflexivity|]. intros _. rewrite app_nil_r. exact Hrr.
  - cbn [filter] in *. destruct (is_live st k) eqn:El; unfold is_live in El.
    + destruct ms as [|m ms]; [discriminate|]. inversion Hsm as [|? ? Hm Hms]; subst.
      destruct (rr_rotation_step st m k (a ++ b) Ha Hrr) as (st1 & Hs & Hrr1 & Ha1 & Hids);
        [destruct (pget k (r_peers st)); discriminate|exact Hm|].
      rewrite <- app_assoc in Hrr1. pose proof (is_live_ids st st1 Hids) as Hlive.
      destruct (IH st1 (b ++ [k]) ms Ha1 Hrr1) as [IH1 IH2];
        [rewrite (filter_ext _ _ Hlive a); cbn [length] in Hlen; congruence|exact Hms|].
      rewrite (filter_ext _ _ Hlive a) in IH1.
      cbn [map rrun rstep]. rewrite Hs. destruct (rrun st1 (map RSend ms)) as [rs st2].
      cbn [fst snd app map] in *. split; [rewrite IH1; reflexivity|].
      intros Hall. rewrite IH2, <- app_assoc; [reflexivity|]. intros i Hi. rewrite Hlive. apply Hall. right. exact Hi.
    + assert (Ek : pget k (r_peers st) = None) by (destruct (pget k (r_peers st)); [discriminate|reflexivity]).
      split; [|intros Hall; specialize (Hall k (or_introl eq_refl)); unfold is_live in Hall; rewrite Ek in Hall; discriminate].
      destruct (IH {| r_peers := r_peers st; r_rr := a ++ b; r_gone := r_gone st |} b ms Ha eq_refl Hlen Hsm) as [IH1 _].
      destruct ms as [|m ms]; [exact IH1|]. cbn [map rrun rstep]. rewrite (send_dead st m k (a ++ b) Hrr Ek). exact IH1.
Qed.

Theorem rr_full_round : forall ms st, all_accepting st ->
  (forall k, In k (r_rr st) -> pget k (r_peers st) <> None) ->
  length ms = length (r_rr st) -> Forall (fun m => lenN (encode_frames m) < 2 ^ 63) ms ->
  fst (rrun st (map RSend ms)) = map ROk (r_rr st) /\ r_rr (snd (rrun st (map RSend ms))) = r_rr st.
Proof.
  intros ms st Ha Hlive Hlen Hsm.
  assert (Hall : forall k, In k (r_rr st) -> is_live st k = true).
  { intros k Hk. specialize (Hlive k Hk). unfold is_live. destruct (pget k (r_peers st)); congruence. }
  pose proof (rr_round (r_rr st) st [] ms Ha (eq_sym (app_nil_r _))) as H.
  rewrite (filter_all _ _ Hall) in H. destruct (H Hlen Hsm) as [H1 H2]. split; [exact H1|exact (H2 Hall)].
Qed.

(** Holds in every reachable state, also when a peer re-joins under its identity while an entry of that
    identity is still queued. *)

Definition rinv (st : rstate) : Prop :=
  NoDup (r_rr st) /\ NoDup (map p_id (r_peers st)) /\ (forall k, In k (map p_id (r_peers st)) -> In k (r_rr st)).

Lemma rstep_rinv st o : rinv st -> rinv (snd (rstep st o)).
Proof.
  intros (Hr & Hd & Hq). destruct o as [k|k|k a|k l|m]; cbn [rstep snd].
  - unfold rinv. cbn [r_rr r_peers]. rewrite map_app. cbn [map p_id].
    assert (Hsub : forall j, In j (r_rr st) ->
              In j (if existsb (N.eqb k) (r_rr st) then r_rr st else r_rr st ++ [k])).
    { intros j Hj. destruct (existsb (N.eqb k) (r_rr st)); [exact Hj|apply in_app_iff; left; exact Hj]. }
    split; [|split].
    + destruct (existsb (N.eqb k) (r_rr st)) eqn:E; [exact Hr|]. apply NoDup_snoc; [exact Hr|].
      intros Hi. apply WorldBasics.memN_In in Hi. exact (eq_true_false_abs _ Hi E).
    + apply NoDup_snoc; [apply NoDup_pdel; exact Hd|]. intros Hi. apply (In_ids_pdel _ _ _ Hd) in Hi. tauto.
    + intros j Hj. apply in_app_iff in Hj as [Hj|[<-|[]]].
      * apply Hsub, Hq. apply (In_ids_pdel _ _ _ Hd) in Hj. tauto.
      * destruct (existsb (N.eqb k) (r_rr st)) eqn:E; [apply WorldBasics.memN_In; exact E|].
        apply in_app_iff; right; left; reflexivity.
  - destruct (pget k (r_peers st)) as [p|]; [|exact (conj Hr (conj Hd Hq))]. unfold rinv. cbn [r_rr r_peers].
    split; [exact Hr|]. split; [apply NoDup_pdel; exact Hd|].
    intros j Hj. apply Hq. apply (In_ids_pdel _ _ _ Hd) in Hj. tauto.
  - unfold rinv. cbn [r_rr r_peers]. rewrite ids_retr. auto.
  - unfold rinv. cbn [r_rr r_peers]. rewrite ids_retr. auto.
  - destruct (send st m) as [r st'] eqn:Es. cbn [snd].
    apply send_post in Es as [(Hall & _ & ->)|(pre & k & rest & p & e & s & Hrr & Hpre & _ & _ & _ & ->)].
    + split; [constructor|]. split; [exact Hd|]. cbn [r_peers r_rr].
      intros j Hj. pose proof (Hall j (Hq j Hj)) as Hn. apply pget_none_iff in Hn. tauto.
    + (* the ids skipped name no peer, so every peer is queued from k on *)
      assert (Hq' : forall j, In j (map p_id (r_peers st)) -> In j (k :: rest)).
      { intros j Hj. pose proof (Hq j Hj) as Hj'. rewrite Hrr in Hj'. apply in_app_iff in Hj' as [Hj'|Hj']; [|exact Hj'].
        exfalso. apply Hpre in Hj'. apply pget_none_iff in Hj'. tauto. }
      rewrite Hrr in Hr. apply NoDup_app_tail, NoDup_cons_iff in Hr as [Hk Hr].
      unfold wrote, rinv. destruct (keeps e); cbn [r_rr r_peers].
      * rewrite ids_pset. split; [apply NoDup_snoc; assumption|]. split; [exact Hd|].
        intros j Hj. apply Hq' in Hj. apply in_app_iff. cbn [In] in *. tauto.
      * split; [exact Hr|]. split; [apply NoDup_pdel; exact Hd|].
        intros j Hj. apply (In_ids_pdel _ _ _ Hd) in Hj as [Hj Hne]. apply Hq' in Hj.
        destruct Hj as [E|Hj]; [congruence|exact Hj].
Qed.

Lemma rrun_rinv : forall ops st rs st', rinv st -> rrun st ops = (rs, st') -> rinv st'.
Proof.
  induction ops as [|o ops IH]; intros st rs st' Hi Hrun.
  - inversion Hrun; subst. exact Hi.
  - apply rrun_cons in Hrun as (rs1 & Erun & _). exact (IH _ _ _ (rstep_rinv st o Hi) Erun).
Qed.

Lemma rinv0 : rinv rstate0.
Proof. split; [constructor|]. split; [constructor|intros k []]. Qed.

Theorem rr_reachable_inv : forall ops rs st, rrun rstate0 ops = (rs, st) ->
  NoDup (r_rr st) /\ NoDup (map p_id (r_peers st)) /\ (forall p, In p (r_peers st) -> In (p_id p) (r_rr st)).
Proof.
  intros ops rs st Hrun. destruct (rrun_rinv ops rstate0 rs st rinv0 Hrun) as (Hr & Hd & Hq).
  split; [exact Hr|]. split; [exact Hd|]. intros p Hp. apply Hq, in_map, Hp.
Qed.

Theorem rr_strict_rotation : forall ops rs st ms, rrun rstate0 ops = (rs, st) ->
  all_accepting st -> length ms = length (r_peers st) ->
  Forall (fun m => lenN (encode_frames m) < 2 ^ 63) ms ->
  let live := filter (is_live st) (r_rr st) in
  fst (rrun st (map RSend ms)) = map ROk live /\ NoDup live /\
  (forall p, In p (r_peers st) -> In (p_id p) live) /\ length live = length (r_peers st).
Proof.
  intros ops rs st ms Hrun Ha Hlen Hsm live.
  destruct (rr_reachable_inv _ _ _ Hrun) as (Hr & Hd & Hq).
  assert (Hnd : NoDup live) by (apply NoDup_filter; exact Hr).
  assert (Hin : forall p, In p (r_peers st) -> In (p_id p) live).
  { intros p Hp. apply filter_In. split; [apply Hq; exact Hp|apply is_live_In, in_map, Hp]. }
  (* [live] and the table's ids are duplicate-free and contain each other *)
  assert (Hll : length live = length (r_peers st)).
  { rewrite <- (map_length p_id (r_peers st)). apply Nat.le_antisymm; apply NoDup_incl_length; try assumption.
    - intros k Hk. apply filter_In in Hk as [_ Hk]. apply is_live_In. exact Hk.
    - intros k Hk. apply in_map_iff in Hk as (p & <- & Hp). apply Hin; exact Hp. }
  split; [|split; [exact Hnd|split; [exact Hin|exact Hll]]].
  apply (rr_round (r_rr st) st [] ms); [exact Ha|symmetry; apply app_nil_r| |exact Hsm].
  fold live. congruence.
Qed.

(** the messages the loop gave to connection k, in order (the i-th result belongs to the i-th RSend) *)
Fixpoint assigned (k : N) (ops : list rop) (rs : list rr_res) : list World.msg :=
  match ops with
  | [] => []
  | RSend m :: ops' =>
    match rs with
    | r :: rs' => (if targets k r then [m] else []) ++ assigned k ops' rs'
    | [] => []
    end
  | _ :: ops' => assigned k ops' rs
  end.

Definition attached (ops : list rop) : list N :=
  flat_map (fun o => match o with RAttach k => [k] | _ => [] end) ops.

Definition observed (o : option rpeer) : option (bytes * bytes) :=
  match o with Some p => Some (k_written (p_sink p), k_buf (p_sink p)) | None => None end.
Definition same_k (k : N) (st st1 : rstate) : Prop :=
  observed (pget k (r_peers st1)) = observed (pget k (r_peers st)) /\
  observed (pget k (r_gone st1)) = observed (pget k (r_gone st)).

Lemma same_k_view k st st1 : same_k k st st1 -> wire_of k st1 = wire_of k st /\ residue k st1 = residue k st.
Proof.
  unfold same_k, wire_of, residue. intros [H1 H2].
  destruct (pget k (r_peers st1)), (pget k (r_peers st)); cbn [observed] in H1; try discriminate;
  destruct (pget k (r_gone st1)), (pget k (r_gone st)); cbn [observed] in H2; try discriminate;
  try (inversion H1); try (inversion H2); split; congruence.
Qed.

Lemma same_k_none k st st1 : same_k k st st1 ->
  (pget k (r_peers st) = None -> pget k (r_peers st1) = None) /\ (pget k (r_gone st) = None -> pget k (r_gone st1) = None).
Proof.
  unfold same_k. intros [H1 H2]. split; intros E; rewrite E in *;
    [destruct (pget k (r_peers st1))|destruct (pget k (r_gone st1))]; [discriminate|reflexivity|discriminate|reflexivity].
Qed.

Lemma observed_retr k j f l : observed (pget k (retr j f l)) = observed (pget k l).
Proof.
  unfold retr. destruct (pget j l) as [p|] eqn:E; [|reflexivity]. rewrite pget_pset.
  destruct (N.eqb_spec k j) as [->|_]; [rewrite E|]; reflexivity.
Qed.

Lemma attached_cons o ops : attached (o :: ops) = (match o with RAttach k => [k] | _ => [] end) ++ attached ops.
Proof. reflexivity. Qed.

Lemma rstep_same_k st o k : o <> RAttach k -> (o = RLost k -> pget k (r_peers st) = None) ->
  (forall r, fst (rstep st o) = Some r -> targets k r = false) -> same_k k st (snd (rstep st o)).
Proof.
  intros Hat Hlost Hr. destruct o as [j|j|j a|j l|m]; cbn [rstep snd fst] in *.
  - assert (Hne : j <> k) by congruence. apply N.eqb_neq in Hne as E.
    unfold same_k. cbn [r_peers r_gone]. rewrite pget_app, pget_pdel_other by congruence. split.
    + destruct (pget k (r_peers st)); [reflexivity|]. cbn [pget p_id]. rewrite E. reflexivity.
    + destruct (pget j (r_peers st)) as [q|] eqn:Eq; [|reflexivity]. cbn [pget]. rewrite (pget_id _ _ _ Eq), E. reflexivity.
  - destruct (pget j (r_peers st)) as [p|] eqn:Ej; [|split; reflexivity].
    assert (Hne : j <> k) by (intros ->; specialize (Hlost eq_refl); congruence). apply N.eqb_neq in Hne as E.
    unfold same_k. cbn [r_peers r_gone pget]. rewrite (pget_id _ _ _ Ej), E, pget_pdel_other by congruence.
    split; reflexivity.
  - split; [apply observed_retr|reflexivity].
  - split; [apply observed_retr|reflexivity].
  - destruct (send st m) as [r st1] eqn:Es. cbn [fst snd] in *.
    destruct (send_frame _ _ _ _ k Es (Hr r eq_refl)) as [A B]. unfold same_k. rewrite A, B. split; reflexivity.
Qed.

Lemma assigned_other st o k ops rs1 : (forall r, fst (rstep st o) = Some r -> targets k r = false) ->
  assigned k (o :: ops) ((match fst (rstep st o) with Some x => [x] | None => [] end) ++ rs1) = assigned k ops rs1.
Proof.
  intros Hr. destruct o as [j|j|j a|j l|m]; try reflexivity.
  cbn [rstep] in *. destruct (send st m) as [r st1]. cbn [fst app assigned] in *. rewrite (Hr r eq_refl). reflexivity.
Qed.

Lemma rstep_gone st o k : pget k (r_peers st) = None -> o <> RAttach k ->
  (forall r, fst (rstep st o) = Some r -> targets k r = false) /\ same_k k st (snd (rstep st o)).
Proof.
  intros Hk Hat. assert (Hr : forall r, fst (rstep st o) = Some r -> targets k r = false).
  { destruct o as [j|j|j a|j l|m]; cbn [rstep fst]; try discriminate.
    destruct (send st m) as [r st1] eqn:Es. intros r0 E. inversion E; subst r0.
    destruct (targets k r) eqn:Et; [|reflexivity]. exfalso.
    exact (proj2 (send_rotation_shrinks _ _ _ _ Es) k Et Hk). }
  split; [exact Hr|]. apply rstep_same_k; [exact Hat|intros _; exact Hk|exact Hr].
Qed.

Theorem gone_never_targeted : forall ops st rs st' k,
  pget k (r_peers st) = None -> ~ In k (attached ops) -> rrun st ops = (rs, st') ->
  (forall r, In r rs -> targets k r = false) /\ pget k (r_peers st') = None /\ wire_of k st' = wire_of k st.
Proof.
  induction ops as [|o ops IH]; intros st rs st' k Hk Hat Hrun.
  - inversion Hrun; subst. split; [intros r []|]. split; [exact Hk|reflexivity].
  - apply rrun_cons in Hrun as (rs1 & Erun & ->). rewrite attached_cons, in_app_iff in Hat.
    destruct (rstep_gone st o k Hk) as [Hr Hs]; [intros ->; apply Hat; left; left; reflexivity|].
    destruct (IH _ rs1 st' k (proj1 (same_k_none _ _ _ Hs) Hk) (fun X => Hat (or_intror X)) Erun) as (Hrs & Hk2 & Hw2).
    split; [|split; [exact Hk2|rewrite Hw2; apply (same_k_view _ _ _ Hs)]].
    intros r Hin. apply in_app_iff in Hin as [Hin|Hin]; [|apply Hrs; exact Hin].
    destruct (fst (rstep st o)) as [r0|]; [|destruct Hin]. destruct Hin as [<-|[]]. apply Hr. reflexivity.
Qed.

Definition fresh (ops : list rop) (st : rstate) : Prop :=
  NoDup (attached ops) /\
  forall j, In j (attached ops) -> pget j (r_peers st) = None /\ pget j (r_gone st) = None.

Lemma rstep_fresh st o ops : fresh (o :: ops) st -> fresh ops (snd (rstep st o)).
Proof.
  unfold fresh. rewrite attached_cons. intros [Hnd Hfr]. split; [exact (NoDup_app_tail _ _ Hnd)|].
  intros j Hj. destruct (Hfr j (in_or_app _ _ _ (or_intror Hj))) as [F1 F2].
  destruct (rstep_gone st o j F1) as [_ Hs]; [intros ->; apply NoDup_cons_iff in Hnd; tauto|].
  apply same_k_none in Hs. tauto.
Qed.

Definition all_ok (k : N) (rs : list rr_res) : Prop := forall r, In r rs -> targets k r = true -> r = ROk k.

(** The stream of connection k - written, then buffered - grows by exactly the messages given to k, also across the
    moment the socket lets go of k; what is buffered then stays buffered for ever. *)
Definition hist (k : N) (st : rstate) (ops : list rop) (rs : list rr_res) (st' : rstate) : Prop :=
  wire_of k st' ++ residue k st' = wire_of k st ++ residue k st ++ concat (map encode_frames (assigned k ops rs)) /\
  (all_ok k rs -> residue k st = [] -> residue k st' = []).

Lemma hist_same k st st1 o ro ops rs1 st' :
  wire_of k st1 = wire_of k st /\ residue k st1 = residue k st ->
  assigned k (o :: ops) (ro ++ rs1) = assigned k ops rs1 ->
  hist k st1 ops rs1 st' -> hist k st (o :: ops) (ro ++ rs1) st'.
Proof.
  unfold hist. intros [-> ->] -> [Ht Hc]. split; [exact Ht|].
  intros X. apply Hc. intros r Hin. apply X. apply in_or_app. right. exact Hin.
Qed.

Lemma hist_gen ops : forall st rs st' k, rinv st -> fresh ops st -> rrun st ops = (rs, st') -> hist k st ops rs st'.
Proof.
  induction ops as [|o ops IH]; intros st rs st' k Hinv Hfr Hrun.
  { inversion Hrun; subst. unfold hist. cbn [assigned map concat]. rewrite app_nil_r. auto. }
  apply rrun_cons in Hrun as (rs1 & Erun & ->).
  specialize (IH _ _ _ k (rstep_rinv st o Hinv) (rstep_fresh st o ops Hfr) Erun).
  assert (Hother : o <> RAttach k -> (o = RLost k -> pget k (r_peers st) = None) ->
            (forall r, fst (rstep st o) = Some r -> targets k r = false) ->
            hist k st (o :: ops) ((match fst (rstep st o) with Some x => [x] | None => [] end) ++ rs1) st').
  { intros C1 C2 C3.
    exact (hist_same _ _ _ _ _ _ _ _ (same_k_view _ _ _ (rstep_same_k st o k C1 C2 C3)) (assigned_other st o k ops rs1 C3) IH). }
  destruct Hinv as (_ & Hd & _).
  destruct o as [j|j|j a|j l|m]; try (apply Hother; discriminate).
  - (* RAttach: k is new, its stream is empty before and after *)
    destruct (N.eq_dec j k) as [->|Hne]; [|apply Hother; [congruence|discriminate|discriminate]].
    destruct (proj2 Hfr k (or_introl eq_refl)) as [F1 F2].
    apply hist_same with (st1 := snd (rstep st (RAttach k))); [|reflexivity|exact IH].
    unfold wire_of, residue. cbn [rstep snd r_peers r_gone].
    rewrite (pdel_none _ _ F1), pget_app, F1, F2. cbn [pget p_id]. rewrite N.eqb_refl. split; reflexivity.
  - (* RLost: k is let go of with its writer as it is *)
    destruct (N.eq_dec j k) as [->|Hne]; [|apply Hother; [discriminate|congruence|discriminate]].
    destruct (pget k (r_peers st)) as [p|] eqn:Ep; [|apply Hother; [discriminate|auto|discriminate]].
    apply hist_same with (st1 := snd (rstep st (RLost k))); [|reflexivity|exact IH].
    unfold wire_of, residue. cbn [rstep snd]. rewrite Ep. cbn [r_peers r_gone pget].
    rewrite (pget_pdel_same _ _ Hd), (pget_id _ _ _ Ep), N.eqb_refl. split; reflexivity.
  - cbn [rstep] in *. destruct (send st m) as [r st1] eqn:Es. cbn [fst snd app] in *.
    destruct (targets k r) eqn:Et; [|apply Hother; [discriminate|discriminate|intros r0 E; inversion E; subst; exact Et]].
    apply send_post in Es as [(_ & -> & _)|(pre & k0 & rest & p & e & s & _ & _ & Hp & Hs & -> & ->)]; [discriminate|].
    rewrite targets_res_of in Et. apply N.eqb_eq in Et. subst k0.
    destruct IH as [IHt IHc]. unfold hist. cbn [assigned]. rewrite targets_res_of, N.eqb_refl, IHt. cbn [app map concat].
    destruct (wrote_view st k e s (rest ++ [k]) rest p Hd Hp) as [Hw Hr]. rewrite Hw, Hr in *.
    apply sink_send_drains in Hs as [D Z]. apply drains_stream in D. cbn [start_send k_written k_buf] in D.
    unfold wire_of, residue. rewrite Hp. split; [rewrite app_assoc, D, <- !app_assoc; reflexivity|].
    intros X _. apply IHc; [intros r0 Hr0; apply X; right; exact Hr0|]. apply Z.
    specialize (X _ (or_introl eq_refl)). rewrite targets_res_of, N.eqb_refl in X.
    destruct e; try reflexivity; discriminate (X eq_refl).
Qed.

Lemma hist_from_start ops rs st : NoDup (attached ops) -> rrun rstate0 ops = (rs, st) -> forall k,
  wire_of k st ++ residue k st = concat (map encode_frames (assigned k ops rs)) /\ (all_ok k rs -> residue k st = []).
Proof.
  intros Hnd Hrun k.
  destruct (hist_gen ops rstate0 rs st k rinv0 (conj Hnd (fun j _ => conj eq_refl eq_refl)) Hrun) as (Ht & Hc).
  split; [exact Ht|]. intros X. apply Hc; [exact X|reflexivity].
Qed.

(** non-vacuity: three peers, the second one's connection breaks after 3 octets *)
Example rr_example :
  let ops := [RAttach 1; RAttach 2; RAttach 3; RPlan 2 [Wrote 3; WErr 1];
              RSend [[65]]; RSend [[66; 66; 66; 66]]; RSend [[67]]; RSend [[68]]; RSend [[69]]] in
  let '(rs, st) := rrun rstate0 ops in
  rs = [ROk 1; RErr 2 (FlErr 1); ROk 3; ROk 1; ROk 3] /\
  wire_of 1 st = [0; 1; 65; 0; 1; 68] /\ wire_of 2 st = [0; 4; 66] /\ wire_of 3 st = [0; 1; 67; 0; 1; 69] /\
  r_rr st = [1; 3].
Proof. vm_compute. repeat split; reflexivity. Qed.

Print Assumptions flush_all_ok_empty.
Print Assumptions send_touches_one.
Print Assumptions send_ok_whole.
Print Assumptions send_err_forgets.
Print Assumptions send_rotation_shrinks.
Print Assumptions send_stall_keeps_turn.
Print Assumptions rr_rotation_step.
Print Assumptions rr_full_round.
Print Assumptions gone_never_targeted.
Print Assumptions rr_reachable_inv.
Print Assumptions rr_strict_rotation.
Print Assumptions rr_example.
