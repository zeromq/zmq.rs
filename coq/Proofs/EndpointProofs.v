(** C19: [parse_endpoint] (Model/Endpoint.v) against the declarative [Accepts], defined here, and
    print-then-parse; Rust's IPv6 text functions are section variables with two assumed laws. *)
From ZV Require Import Base.Bytes Model.Endpoint.
From Coq Require Import ZifyBool.

Lemma forallb_impl {A} (P Q : A -> bool) l :
  (forall x, P x = true -> Q x = true) -> forallb P l = true -> forallb Q l = true.
Proof.
  intros HPQ H. apply forallb_forall. intros x Hx.
  apply HPQ. eapply forallb_forall in H; eauto.
Qed.

Fixpoint nrange (k : nat) (start : N) : list N :=
  match k with
  | O => []
  | S k' => start :: nrange k' (N.succ start)
  end.

Lemma in_nrange k : forall start n, start <= n < start + N.of_nat k -> In n (nrange k start).
Proof.
  induction k as [|k IH]; intros start n H; cbn [nrange]; [lia|].
  destruct (N.eq_dec start n) as [->|Hne]; [left; reflexivity|].
  right. apply IH. lia.
Qed.

Lemma sweep (P : N -> bool) (k : nat) :
  forallb P (nrange k 0) = true -> forall n, n < N.of_nat k -> P n = true.
Proof.
  intros H n Hn. eapply forallb_forall in H; [exact H|]. apply in_nrange. lia.
Qed.

Lemma str_eqb_eq a : forall b, str_eqb a b = true -> a = b.
Proof.
  induction a as [|x a IH]; intros [|y b]; cbn [str_eqb]; intros H; try discriminate; [reflexivity|].
  apply andb_true_iff in H as [H1 H2]. apply N.eqb_eq in H1. subst. f_equal. auto.
Qed.

Lemma span_app p s : forall a b, span p s = (a, b) -> s = a ++ b.
Proof.
  induction s as [|c t IH]; intros a b; cbn [span].
  - intros [= <- <-]. reflexivity.
  - destruct (p c).
    + destruct (span p t) as [a1 b1]. intros [= <- <-]. cbn [app]. f_equal. auto.
    + intros [= <- <-]. reflexivity.
Qed.

Lemma adigit_mod n : is_adigit (48 + n mod 10) = true.
Proof.
  pose proof (N.mod_upper_bound n 10 ltac:(discriminate)) as H.
  set (r := n mod 10) in *. clearbody r. unfold is_adigit. lia.
Qed.

Lemma dec_str_fuel_digits f : forall n acc,
  forallb is_adigit acc = true -> forallb is_adigit (dec_str_fuel f n acc) = true.
Proof.
  induction f as [|f IH]; intros n acc H; cbn [dec_str_fuel]; [exact H|].
  assert (H' : forallb is_adigit ((48 + n mod 10) :: acc) = true).
  { cbn [forallb]. rewrite adigit_mod, H. reflexivity. }
  destruct (n / 10 =? 0); [exact H'|]. apply IH. exact H'.
Qed.

Lemma dec_str_fuel_nonnil f : forall n acc, (f = 0%nat -> acc <> []) -> dec_str_fuel f n acc <> [].
Proof.
  induction f as [|f IH]; intros n acc H; cbn [dec_str_fuel]; [exact (H eq_refl)|].
  destruct (n / 10 =? 0); [discriminate|]. apply IH. intros _. discriminate.
Qed.

Lemma dec_str_nonnil n : dec_str n <> [].
Proof. apply dec_str_fuel_nonnil. intros E. discriminate E. Qed.

Lemma dec_str_digits n : forallb is_adigit (dec_str n) = true.
Proof. apply dec_str_fuel_digits. reflexivity. Qed.

Lemma dec_val_fuel f : forall n acc, n < 10 ^ N.of_nat f ->
  fold_left (fun a c => a * 10 + (c - 48)) (dec_str_fuel f n acc) 0 =
  fold_left (fun a c => a * 10 + (c - 48)) acc n.
Proof.
  induction f as [|f IH]; intros n acc Hn; cbn [dec_str_fuel].
  - replace n with 0 by (cbn in Hn; lia). reflexivity.
  - rewrite Nat2N.inj_succ, N.pow_succ_r' in Hn.
    pose proof (N.div_mod n 10 ltac:(discriminate)) as D.
    set (q := n / 10) in *. set (r := n mod 10) in *. clearbody q r.
    destruct (N.eqb_spec q 0) as [E|E].
    + cbn [fold_left]. f_equal. lia.
    + rewrite IH by lia. cbn [fold_left]. f_equal. lia.
Qed.

Lemma dec_val_dec_str : forall n, n <= 65535 -> dec_val (dec_str n) = n.
Proof. intros n Hn. apply (dec_val_fuel 20 n []). lia. Qed.

Lemma octet_sweep :
  forallb (fun n => match octet (dec_str n) with Some v => v =? n | None => false end)
          (nrange 256 0) = true.
Proof. vm_compute. reflexivity. Qed.

Lemma octet_dec_str a : a <= 255 -> octet (dec_str a) = Some a.
Proof.
  intros Ha.
  pose proof (sweep _ _ octet_sweep a ltac:(lia)) as H. cbv beta in H.
  destruct (octet (dec_str a)) as [v|]; [|discriminate].
  apply N.eqb_eq in H. subst. reflexivity.
Qed.

Lemma split_last_none c b :
  forallb (fun x => negb (x =? c)) b = true -> split_last c b = None.
Proof.
  induction b as [|x b IH]; cbn [forallb split_last]; intros H; [reflexivity|].
  apply andb_true_iff in H as [H1 H2]. rewrite (IH H2).
  destruct (x =? c); [discriminate H1|reflexivity].
Qed.

Lemma split_last_none_inv c s :
  split_last c s = None -> forallb (fun x => negb (x =? c)) s = true.
Proof.
  induction s as [|x s IH]; cbn [forallb split_last]; intros H; [reflexivity|].
  destruct (split_last c s) as [[a1 b1]|]; [discriminate|].
  destruct (x =? c); [discriminate|]. cbn [negb andb]. auto.
Qed.

Lemma split_last_app : forall c a b,
  forallb (fun x => negb (x =? c)) b = true -> split_last c (a ++ c :: b) = Some (a, b).
Proof.
  intros c a b H. induction a as [|x a IH]; cbn [app split_last].
  - rewrite (split_last_none _ _ H), N.eqb_refl. reflexivity.
  - rewrite IH. reflexivity.
Qed.

Lemma split_last_sound : forall c s a b,
  split_last c s = Some (a, b) ->
  s = a ++ c :: b /\ forallb (fun x => negb (x =? c)) b = true.
Proof.
  intros c s. induction s as [|x s IH]; intros a b; cbn [split_last]; [discriminate|].
  destruct (split_last c s) as [[a1 b1]|] eqn:E.
  - intros [= <- <-]. destruct (IH _ _ eq_refl) as [-> Hb]. split; [reflexivity|exact Hb].
  - destruct (x =? c) eqn:Ec; [|discriminate]. intros [= <- <-].
    apply N.eqb_eq in Ec. subst. split; [reflexivity|]. apply split_last_none_inv. exact E.
Qed.

Lemma split_on_nonnil c s : split_on c s <> [].
Proof.
  induction s as [|x s IH]; cbn [split_on]; [discriminate|].
  destruct (split_on c s); [discriminate|]. destruct (x =? c); discriminate.
Qed.

Lemma split_on_forallb (P : N -> bool) c s :
  forallb (forallb P) (split_on c s) = true ->
  forallb (fun x => P x || (x =? c)) s = true.
Proof.
  induction s as [|x s IH]; cbn [split_on forallb]; [reflexivity|].
  destruct (split_on c s) as [|cur rest] eqn:E.
  - exfalso. exact (split_on_nonnil c s E).
  - destruct (x =? c) eqn:Ec; cbn [forallb]; intros H.
    + rewrite orb_true_r. cbn [andb]. apply IH. exact H.
    + apply andb_true_iff in H as [H1 H2]. apply andb_true_iff in H1 as [H0 H1].
      rewrite H0. cbn [orb andb]. apply IH. cbn [forallb]. rewrite H1, H2. reflexivity.
Qed.

Lemma split_on_nodot c a :
  forallb (fun x => negb (x =? c)) a = true -> split_on c a = [a].
Proof.
  induction a as [|x a IH]; cbn [forallb split_on]; intros H; [reflexivity|].
  apply andb_true_iff in H as [H1 H2]. rewrite (IH H2).
  destruct (x =? c); [discriminate H1|reflexivity].
Qed.

Lemma split_on_app c a rest :
  forallb (fun x => negb (x =? c)) a = true ->
  split_on c (a ++ [c] ++ rest) = a :: split_on c rest.
Proof.
  induction a as [|x a IH]; cbn [forallb app split_on]; intros H.
  - destruct (split_on c rest) as [|cur r] eqn:E.
    + exfalso. exact (split_on_nonnil c rest E).
    + rewrite N.eqb_refl. reflexivity.
  - apply andb_true_iff in H as [H1 H2]. cbn [app] in IH. rewrite (IH H2).
    destruct (x =? c); [discriminate H1|reflexivity].
Qed.

Lemma octet_some s v : octet s = Some v -> forallb is_adigit s = true /\ v <= 255.
Proof.
  destruct s as [|c t]; [discriminate|]. unfold octet.
  destruct (forallb is_adigit (c :: t)); cbn [negb orb]; [|discriminate].
  destruct (3 <? lenN (c :: t)); [discriminate|].
  destruct ((c =? 48) && _); [discriminate|].
  destruct (dec_val (c :: t) <=? 255) eqn:E; [|discriminate].
  intros [= <-]. split; [reflexivity|]. apply N.leb_le. exact E.
Qed.

Lemma parse4_some s ip : parse4 s = Some ip ->
  forallb (fun x => is_adigit x || (x =? ch_dot)) s = true /\
  exists a b c d, ip = HIp4 a b c d /\ a <= 255 /\ b <= 255 /\ c <= 255 /\ d <= 255.
Proof.
  unfold parse4.
  destruct (split_on ch_dot s) as [|ga [|gb [|gc [|gd [|? ?]]]]] eqn:Es; try discriminate.
  destruct (octet ga) as [a|] eqn:Ea; destruct (octet gb) as [b|] eqn:Eb;
    destruct (octet gc) as [c|] eqn:Ec; destruct (octet gd) as [d|] eqn:Ed; try discriminate.
  intros [= <-].
  apply octet_some in Ea as [Da Ha], Eb as [Db Hb], Ec as [Dc Hc], Ed as [Dd Hd].
  split; [|exists a, b, c, d; auto].
  apply split_on_forallb. rewrite Es. cbn [forallb]. rewrite Da, Db, Dc, Dd. reflexivity.
Qed.

Lemma parse4_no_colon s ip : parse4 s = Some ip -> ~ In ch_colon s.
Proof.
  intros H Hin. apply parse4_some in H as [H _].
  eapply forallb_forall in H; [|exact Hin]. vm_compute in H. discriminate.
Qed.

Lemma parse4_nil : parse4 [] = None.
Proof. reflexivity. Qed.

Lemma parse4_lbr_none t : parse4 (ch_lbr :: t) = None.
Proof.
  destruct (parse4 (ch_lbr :: t)) eqn:E; [|reflexivity].
  apply parse4_some in E as [E _]. cbn [forallb] in E.
  apply andb_true_iff in E as [E _]. vm_compute in E. discriminate.
Qed.

Lemma dec_str_nodot a : forallb (fun x => negb (x =? ch_dot)) (dec_str a) = true.
Proof.
  eapply forallb_impl; [|apply dec_str_digits].
  intros x. unfold is_adigit, ch_dot. lia.
Qed.

Lemma parse4_fmt a b c d : a <= 255 -> b <= 255 -> c <= 255 -> d <= 255 ->
  parse4 (dec_str a ++ [ch_dot] ++ dec_str b ++ [ch_dot] ++ dec_str c ++ [ch_dot] ++ dec_str d)
  = Some (HIp4 a b c d).
Proof.
  intros Ha Hb Hc Hd. unfold parse4.
  rewrite !split_on_app by apply dec_str_nodot.
  rewrite split_on_nodot by apply dec_str_nodot.
  rewrite !octet_dec_str by assumption. reflexivity.
Qed.

Lemma utf8_len1_pos c : 1 <= utf8_len1 c.
Proof.
  unfold utf8_len1. destruct (c <? 128), (c <? 2048), (c <? 65536); lia.
Qed.

Lemma utf8_len_cons c s : utf8_len (c :: s) = utf8_len1 c + utf8_len s.
Proof. reflexivity. Qed.

Lemma utf8_len_ge s : N.of_nat (length s) <= utf8_len s.
Proof.
  induction s as [|c s IH]; [cbn; lia|].
  rewrite utf8_len_cons. cbn [length]. pose proof (utf8_len1_pos c). lia.
Qed.

Theorem bracket_guard_safe : forall c0 t, let s := c0 :: t in
  (c0 =? ch_lbr) && (4 <=? utf8_len s) && (last s 0 =? ch_rbr) = true ->
  utf8_len1 c0 = 1 /\ utf8_len1 (last s 0) = 1 /\ (2 <= length s)%nat.
Proof.
  intros c0 t s H.
  apply andb_true_iff in H as [H H3]. apply andb_true_iff in H as [H1 H2].
  apply N.eqb_eq in H1, H3. apply N.leb_le in H2.
  split; [rewrite H1; reflexivity|]. split; [rewrite H3; reflexivity|].
  subst s. destruct t as [|c1 t]; [|cbn [length]; lia].
  exfalso. rewrite H1 in H2. vm_compute in H2. apply H2. reflexivity.
Qed.

Lemma no_nl_app a b : no_nl (a ++ b) = no_nl a && no_nl b.
Proof. unfold no_nl. apply forallb_app. Qed.

Lemma digits_no_nl p : forallb is_adigit p = true -> no_nl p = true.
Proof.
  unfold no_nl. apply forallb_impl. intros x. unfold is_adigit, ch_nl. lia.
Qed.

Lemma digits_no_colon p :
  forallb is_adigit p = true -> forallb (fun x => negb (x =? ch_colon)) p = true.
Proof.
  apply forallb_impl. intros x. unfold is_adigit, ch_colon. lia.
Qed.

Section Laws.
  Variable parse6 : str -> option (list N).
  Variable fmt6 : list N -> str.
  Definition is_ip6_char (c : N) : bool :=
    is_adigit c || ((97 <=? c) && (c <=? 102)) || ((65 <=? c) && (c <=? 70))
    || (c =? ch_colon) || (c =? ch_dot).
  (* what is assumed of the standard library's IPv6 text form *)
  Hypothesis H6_chars : forall s g, parse6 s = Some g ->
    forallb is_ip6_char s = true /\ In ch_colon s /\ (2 <= length s)%nat.
  Hypothesis H6_fmt_parses : forall s g, parse6 s = Some g -> parse6 (fmt6 g) = Some g.

  Lemma parse_host_cons c0 t :
    parse_host parse6 (c0 :: t) =
    match parse4 (c0 :: t) with
    | Some h => Some h
    | None =>
      match parse6 (if (c0 =? ch_lbr) && (4 <=? utf8_len (c0 :: t)) && (last (c0 :: t) 0 =? ch_rbr)
                    then removelast t else c0 :: t) with
      | Some g => Some (HIp6 g)
      | None => Some (HDomain (c0 :: t))
      end
    end.
  Proof using. reflexivity. Qed.

  Lemma parse_endpoint_tcp addr :
    parse_endpoint parse6 ([116; 99; 112; 58; 47; 47] ++ addr) =
    if match addr with [] => true | _ => false end || negb (no_nl addr) then None else
    match split_last ch_colon addr with
    | Some (h :: ht, p :: pt) =>
      if negb (forallb is_adigit (p :: pt)) then None else
      let v := dec_val (p :: pt) in
      if 65535 <? v then None else
      match parse_host parse6 (h :: ht) with
      | Some hst => Some (ETcp hst v)
      | None => None
      end
    | _ => None
    end.
  Proof using. reflexivity. Qed.

  Lemma parse_endpoint_ipc addr :
    parse_endpoint parse6 ([105; 112; 99; 58; 47; 47] ++ addr) =
    if match addr with [] => true | _ => false end || negb (no_nl addr) then None
    else Some (EIpc addr).
  Proof using. reflexivity. Qed.

  Inductive Accepts : str -> endpoint -> Prop :=
  | Acc_tcp : forall h p hst,
      h <> [] -> p <> [] -> forallb is_adigit p = true -> dec_val p <= 65535 ->
      no_nl h = true -> parse_host parse6 h = Some hst ->
      Accepts ([116; 99; 112; 58; 47; 47] ++ h ++ [ch_colon] ++ p) (ETcp hst (dec_val p))
  | Acc_ipc : forall path, path <> [] -> no_nl path = true ->
      Accepts ([105; 112; 99; 58; 47; 47] ++ path) (EIpc path).

  Lemma accepts_parse s e : Accepts s e -> parse_endpoint parse6 s = Some e.
  Proof using.
    intros [h p hst Hh Hp Hd Hv Hnl Hhost | path Hp Hnl].
    - rewrite parse_endpoint_tcp.
      assert (Hnl' : no_nl (h ++ [ch_colon] ++ p) = true).
      { rewrite !no_nl_app, Hnl, (digits_no_nl _ Hd). reflexivity. }
      rewrite Hnl'.
      change ([ch_colon] ++ p) with (ch_colon :: p).
      rewrite (split_last_app ch_colon h p (digits_no_colon _ Hd)).
      destruct h as [|h0 ht]; [contradiction|]. destruct p as [|p0 pt]; [contradiction|].
      cbn [app orb negb]. rewrite Hd. cbn [negb]. cbv zeta.
      rewrite (proj2 (N.ltb_ge _ _) Hv), Hhost. reflexivity.
    - rewrite parse_endpoint_ipc. rewrite Hnl.
      destruct path; [contradiction|]. reflexivity.
  Qed.

  Lemma parse_accepts s e : parse_endpoint parse6 s = Some e -> Accepts s e.
  Proof using.
    unfold parse_endpoint.
    destruct (span is_lower s) as [scheme rest] eqn:Es.
    apply span_app in Es. subst s.
    destruct scheme as [|s0 scheme]; [discriminate|].
    destruct rest as [|c1 [|c2 [|c3 addr]]]; try discriminate.
    destruct ((c1 =? ch_colon) && (c2 =? ch_slash) && (c3 =? ch_slash)) eqn:Ec;
      cbn [negb]; [|discriminate].
    apply andb_true_iff in Ec as [Ec E3]. apply andb_true_iff in Ec as [E1 E2].
    apply N.eqb_eq in E1, E2, E3. subst c1 c2 c3.
    destruct addr as [|x addr]; cbn [orb]; [discriminate|].
    destruct (no_nl (x :: addr)) eqn:Enl; cbn [negb]; [|discriminate].
    destruct (str_eqb (s0 :: scheme) [116; 99; 112]) eqn:Et.
    - apply str_eqb_eq in Et. rewrite Et.
      destruct (split_last ch_colon (x :: addr)) as [[[|h ht] [|p pt]]|] eqn:Esp; try discriminate.
      destruct (forallb is_adigit (p :: pt)) eqn:Ed; cbn [negb]; [|discriminate].
      cbv zeta. destruct (65535 <? dec_val (p :: pt)) eqn:Ev; [discriminate|]. apply N.ltb_ge in Ev.
      destruct (parse_host parse6 (h :: ht)) as [hst|] eqn:Eh; [|discriminate].
      intros [= <-].
      apply split_last_sound in Esp as [Esp _]. rewrite Esp in *.
      rewrite no_nl_app in Enl. apply andb_true_iff in Enl as [Enl _].
      apply (Acc_tcp (h :: ht) (p :: pt) hst); try assumption; discriminate.
    - destruct (str_eqb (s0 :: scheme) [105; 112; 99]) eqn:Ei; [|discriminate].
      apply str_eqb_eq in Ei. rewrite Ei. intros [= <-].
      apply (Acc_ipc (x :: addr)); [discriminate|assumption].
  Qed.

  Theorem parse_iff_accepts : forall s e, parse_endpoint parse6 s = Some e <-> Accepts s e.
  Proof using. intros s e. split; [apply parse_accepts|apply accepts_parse]. Qed.

  Theorem ipv4_literal_is_address : forall h ip,
    parse4 h = Some ip -> parse_host parse6 h = Some ip.
  Proof using.
    intros [|c0 t] ip H; [rewrite parse4_nil in H; discriminate|].
    rewrite parse_host_cons, H. reflexivity.
  Qed.

  Lemma parse4_ip6_none s g : parse6 s = Some g -> parse4 s = None.
  Proof using H6_chars.
    intros H. destruct (parse4 s) eqn:E; [|reflexivity]. exfalso.
    apply H6_chars in H as (_ & Hc & _). exact (parse4_no_colon _ _ E Hc).
  Qed.

  Theorem ipv6_literal_bare : forall h g,
    parse6 h = Some g -> parse_host parse6 h = Some (HIp6 g).
  Proof using H6_chars.
    intros h g H. pose proof (H6_chars _ _ H) as (Hc & _ & Hl).
    destruct h as [|c0 t]; [inversion Hl|].
    rewrite parse_host_cons, (parse4_ip6_none _ _ H).
    destruct (c0 =? ch_lbr) eqn:E.
    - apply N.eqb_eq in E. subst c0. cbn [forallb] in Hc.
      apply andb_true_iff in Hc as [Hc _]. vm_compute in Hc. discriminate.
    - cbn [andb]. rewrite H. reflexivity.
  Qed.

  Theorem ipv6_literal_bracketed : forall h g,
    parse6 h = Some g -> parse_host parse6 ([ch_lbr] ++ h ++ [ch_rbr]) = Some (HIp6 g).
  Proof using H6_chars.
    clear H6_fmt_parses. (* [lia] below would mention it *)
    intros h g H. pose proof (H6_chars _ _ H) as (_ & _ & Hl).
    change ([ch_lbr] ++ h ++ [ch_rbr]) with (ch_lbr :: h ++ [ch_rbr]).
    rewrite parse_host_cons, parse4_lbr_none, N.eqb_refl.
    change (ch_lbr :: h ++ [ch_rbr]) with ((ch_lbr :: h) ++ [ch_rbr]).
    rewrite last_last, N.eqb_refl, removelast_last.
    assert (Hu : 4 <=? utf8_len ((ch_lbr :: h) ++ [ch_rbr]) = true).
    { apply N.leb_le. pose proof (utf8_len_ge ((ch_lbr :: h) ++ [ch_rbr])) as Hg.
      rewrite app_length in Hg. cbn [length] in Hg. lia. }
    rewrite Hu. cbn [andb]. rewrite H. reflexivity.
  Qed.

  Lemma ip6_char_no_nl s : forallb is_ip6_char s = true -> no_nl s = true.
  Proof using.
    clear H6_chars H6_fmt_parses.
    unfold no_nl. apply forallb_impl. intros x.
    unfold is_ip6_char, is_adigit, ch_colon, ch_dot, ch_nl. lia.
  Qed.

  Definition host_text (hst : host) : str :=
    match hst with
    | HIp6 _ => [ch_lbr] ++ fmt_host fmt6 hst ++ [ch_rbr]
    | _ => fmt_host fmt6 hst
    end.

  Lemma host_text_ok h hst :
    h <> [] -> no_nl h = true -> parse_host parse6 h = Some hst ->
    host_text hst <> [] /\ no_nl (host_text hst) = true /\
    parse_host parse6 (host_text hst) = Some hst.
  Proof using H6_chars H6_fmt_parses.
    intros Hh Hnl Hp. destruct h as [|c0 t]; [contradiction|].
    rewrite parse_host_cons in Hp.
    destruct (parse4 (c0 :: t)) as [ip|] eqn:E4.
    - injection Hp as <-.
      destruct (parse4_some _ _ E4) as (_ & a & b & c & d & -> & Ha & Hb & Hc & Hd).
      unfold host_text, fmt_host.
      pose proof (parse4_fmt a b c d Ha Hb Hc Hd) as Hf.
      split; [|split].
      + intros Hnil. rewrite Hnil in Hf. rewrite parse4_nil in Hf. discriminate.
      + unfold no_nl. eapply forallb_impl; [|exact (proj1 (parse4_some _ _ Hf))].
        intros x. unfold is_adigit, ch_dot, ch_nl. lia.
      + apply ipv4_literal_is_address. exact Hf.
    - revert Hp. destruct (parse6 _) as [g|] eqn:E6; intros Hp.
      + injection Hp as <-.
        pose proof (H6_fmt_parses _ _ E6) as Hf.
        pose proof (H6_chars _ _ Hf) as (Hc & _ & _).
        unfold host_text, fmt_host. split; [discriminate|]. split.
        * rewrite !no_nl_app, (ip6_char_no_nl _ Hc). reflexivity.
        * apply ipv6_literal_bracketed. exact Hf.
      + injection Hp as <-. unfold host_text, fmt_host.
        split; [discriminate|]. split; [exact Hnl|].
        rewrite parse_host_cons, E4, E6. reflexivity.
  Qed.

  Theorem roundtrip : forall s e,
    parse_endpoint parse6 s = Some e -> parse_endpoint parse6 (fmt_endpoint fmt6 e) = Some e.
  Proof using H6_chars H6_fmt_parses.
    intros s e H. apply parse_iff_accepts in H.
    destruct H as [h p hst Hh Hp Hd Hv Hnl Hhost | path Hp Hnl].
    - destruct (host_text_ok _ _ Hh Hnl Hhost) as (T1 & T2 & T3).
      pose proof (Acc_tcp (host_text hst) (dec_str (dec_val p)) hst T1 (dec_str_nonnil _) (dec_str_digits _)) as A.
      rewrite (dec_val_dec_str _ Hv) in A.
      apply parse_iff_accepts. exact (A Hv T2 T3).
    - apply parse_iff_accepts. exact (Acc_ipc path Hp Hnl).
  Qed.
End Laws.

Print Assumptions parse_iff_accepts.
Print Assumptions roundtrip.
Print Assumptions ipv6_literal_bracketed.
Print Assumptions ipv4_literal_is_address.
Print Assumptions bracket_guard_safe.
