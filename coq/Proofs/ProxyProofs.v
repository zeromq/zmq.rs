(** C15: the proxy loop forwards exactly what it received, per direction, for every choice sequence:
    the two invariants and that every iteration keeps them; Properties/C15.v folds them over a run. *)
From ZV Require Import Base.Bytes Base.Res Model.Codec Model.World Model.Proxy.

(** what has been sent on a side is what was received on the other; when an error ended the proxy,
    at most the one message whose forwarding failed is missing *)
Definition forward_inv (s : pstate) : Prop :=
  exists tf tb, p_recv_f s = p_sent_b s ++ tf /\ p_recv_b s = p_sent_f s ++ tb /\
    ((p_done s = false /\ tf = [] /\ tb = []) \/ (p_done s = true /\ (length tf + length tb <= 1)%nat)).

(** the capture socket gets a copy of every message taken from either side, in forwarding order *)
Definition cap_inv (s : pstate) : Prop :=
  match p_cap s with
  | Some _ => length (p_sent_c s) = (length (p_recv_f s) + length (p_recv_b s))%nat /\
              (forall m, In m (p_sent_c s) <-> In m (p_recv_f s) \/ In m (p_recv_b s))
  | None => p_sent_c s = []
  end.

Definition hist (s : pstate) := (p_recv_f s, p_recv_b s, p_sent_b s, p_sent_f s, p_sent_c s).

Lemma proxy_iter_cases s c : p_done s = false ->
  (p_cap (proxy_iter s c) = None <-> p_cap s = None) /\
  (hist (proxy_iter s c) = hist s \/
   exists m,
     p_recv_f (proxy_iter s c) = match c with Front => p_recv_f s ++ [m] | Back => p_recv_f s end /\
     p_recv_b (proxy_iter s c) = match c with Back => p_recv_b s ++ [m] | Front => p_recv_b s end /\
     p_sent_c (proxy_iter s c) = match p_cap s with Some _ => p_sent_c s ++ [m] | None => p_sent_c s end /\
     ((p_done (proxy_iter s c) = true /\ p_sent_b (proxy_iter s c) = p_sent_b s /\ p_sent_f (proxy_iter s c) = p_sent_f s) \/
      (p_sent_b (proxy_iter s c) = match c with Front => p_sent_b s ++ [m] | Back => p_sent_b s end /\
       p_sent_f (proxy_iter s c) = match c with Back => p_sent_f s ++ [m] | Front => p_sent_f s end))).
Proof.
  (* the case analysis is done on one copy of [proxy_iter s c] *)
  intros Ed. remember (proxy_iter s c) as s' eqn:E. unfold proxy_iter in E. rewrite Ed in E.
  destruct (step _ ORecv) as [obs src'].
  destruct obs as [|o1 t]; [subst s'; split; [reflexivity|left; reflexivity]|].
  (* only a lone [BRecv], the second constructor, moves the histories *)
  destruct o1 as [cc ann|from m0|e| | |e back|bb|cc bb|cc r1 r2|]; destruct t as [|o2 rest];
    try (subst s'; split; [reflexivity|left; reflexivity]).
  set (m := frames_of_recv from m0) in E.
  destruct (p_cap s) as [wc|].
  - destruct (step wc (OSend m)) as [o wc']. destruct (send_ok o); cbn [negb] in E.
    + destruct (step _ (OSend m)) as [o2 dst']. subst s'. split; [split; discriminate|]. right. exists m.
      repeat split. right. split; reflexivity.
    + subst s'. split; [split; discriminate|]. right. exists m. repeat split. left. repeat split.
  - cbn [negb] in E. destruct (step _ (OSend m)) as [o2 dst']. subst s'. split; [reflexivity|]. right. exists m.
    repeat split. right. split; reflexivity.
Qed.

Lemma forward_inv0 f b c : forward_inv (pstate0 f b c).
Proof. exists [], []. cbn. repeat split; auto. Qed.

Lemma inv_running s : p_done s = false -> forward_inv s -> p_recv_f s = p_sent_b s /\ p_recv_b s = p_sent_f s.
Proof.
  intros Hd (tf & tb & Hf & Hb & [(_ & -> & ->)|(Hd' & _)]); [|congruence].
  rewrite !app_nil_r in *. auto.
Qed.

Lemma forward_inv_all s : p_recv_f s = p_sent_b s -> p_recv_b s = p_sent_f s -> forward_inv s.
Proof.
  intros Ef Eb. exists [], []. rewrite !app_nil_r. split; [exact Ef|]. split; [exact Eb|].
  destruct (p_done s); [right|left]; repeat split. cbn [length]. lia.
Qed.

Lemma proxy_iter_inv s c : forward_inv s -> forward_inv (proxy_iter s c).
Proof.
  intros Hinv. destruct (p_done s) eqn:Ed; [unfold proxy_iter; rewrite Ed; exact Hinv|].
  destruct (inv_running s Ed Hinv) as [Ef Eb].
  destruct (proxy_iter_cases s c Ed) as [_ [E|(m & Rf & Rb & _ & [(Hd & Sb & Sf)|(Sb & Sf)])]].
  - injection E as Rf Rb Sb Sf _. apply forward_inv_all; congruence.
  - exists (match c with Front => [m] | Back => [] end), (match c with Back => [m] | Front => [] end).
    rewrite Rf, Rb, Sb, Sf, Hd, Ef, Eb.
    destruct c; rewrite app_nil_r; repeat split; right; split; (reflexivity || (cbn [length]; lia)).
  - apply forward_inv_all; [rewrite Rf, Sb, Ef|rewrite Rb, Sf, Eb]; reflexivity.
Qed.

Lemma cap_iter s c : cap_inv s -> cap_inv (proxy_iter s c).
Proof.
  intros H. destruct (p_done s) eqn:Ed; [unfold proxy_iter; rewrite Ed; exact H|].
  destruct (proxy_iter_cases s c Ed) as [Hc Hh]. unfold cap_inv in *.
  destruct (p_cap s) as [wc|].
  - destruct (p_cap (proxy_iter s c)) as [wc'|]; [|discriminate (proj1 Hc eq_refl)].
    destruct Hh as [E|(m & Rf & Rb & Sc & _)].
    + injection E as -> -> _ _ ->. exact H.
    + rewrite Rf, Rb, Sc. destruct H as [Hl Hin]. split.
      * destruct c; rewrite !app_length; cbn [length]; lia.
      * intros x. rewrite in_app_iff, Hin. destruct c; rewrite in_app_iff; cbn [In]; tauto.
  - rewrite (proj2 Hc eq_refl).
    destruct Hh as [E|(m & _ & _ & Sc & _)]; [injection E as _ _ _ _ ->|rewrite Sc]; exact H.
Qed.

