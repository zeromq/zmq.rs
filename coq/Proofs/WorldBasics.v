(** Basic facts about Model/World.v, stated once for all the socket-level proofs: the peer tables
    ([memN]/[delN]), connection lookup and update, what arrivals, one poll, the fair queue, a disconnect and a
    registration change and what they leave alone, and the unfolding equations of [step] and [run]. *)
From Coq Require Import List Arith NArith Lia Bool.
From ZV Require Import Base.Bytes Base.Res Model.Codec Model.World Proofs.BytesProofs.
Import ListNotations.
Open Scope N_scope.

(** reduces projections of the record updates [with_*], and nothing else *)
Ltac wsimp := cbn [w_type w_conns w_peers w_rr w_heap w_counter w_streams w_reg w_cur w_env w_subs
  set_w with_conns with_fq with_peers with_rr with_cur with_subs upd_conn fq_remove fq_insert].
Tactic Notation "wsimp" "in" hyp(H) := cbn [w_type w_conns w_peers w_rr w_heap w_counter w_streams w_reg w_cur w_env w_subs
  set_w with_conns with_fq with_peers with_rr with_cur with_subs upd_conn fq_remove fq_insert] in H.

Lemma memN_cons k a l : memN k (a :: l) = (k =? a) || memN k l.
Proof. reflexivity. Qed.

Lemma memN_app k l1 l2 : memN k (l1 ++ l2) = memN k l1 || memN k l2.
Proof. apply existsb_app. Qed.

Lemma memN_snoc k l x : memN k (l ++ [x]) = memN k l || (k =? x).
Proof. rewrite memN_app. cbn. rewrite orb_false_r. reflexivity. Qed.

Lemma memN_In k l : memN k l = true <-> In k l.
Proof.
  unfold memN. rewrite existsb_exists. split.
  - intros (x & Hin & E). apply N.eqb_eq in E. subst. exact Hin.
  - intros H. exists k. split; [exact H|apply N.eqb_refl].
Qed.

Lemma memN_delN j k l : memN j (delN k l) = negb (j =? k) && memN j l.
Proof. apply (existsb_eqb_filter (fun x => negb (x =? k))). Qed.

Lemma memN_delN_sub j k l : memN j (delN k l) = true -> memN j l = true.
Proof. rewrite memN_delN. intros H. apply andb_true_iff in H. apply H. Qed.

Lemma memN_delN_same k l : memN k (delN k l) = false.
Proof. rewrite memN_delN, N.eqb_refl. reflexivity. Qed.

Lemma memN_delN_other j k l : j <> k -> memN j (delN k l) = memN j l.
Proof. intros H. rewrite memN_delN. destruct (N.eqb_spec j k); [contradiction|reflexivity]. Qed.

Lemma delN_length_le k l : (length (delN k l) <= length l)%nat.
Proof. unfold delN. induction l as [|x l IH]; cbn [filter length]; [lia|]. destruct (negb _); cbn [length]; lia. Qed.

Lemma delN_length_lt k l : memN k l = true -> (length (delN k l) < length l)%nat.
Proof.
  unfold memN, delN. induction l as [|x l IH]; cbn [existsb filter length]; [discriminate|].
  intros H. rewrite (N.eqb_sym k x) in H.
  destruct (x =? k); cbn [negb orb length] in *.
  - pose proof (delN_length_le k l) as L. unfold delN in L. lia.
  - specialize (IH H). lia.
Qed.

Lemma get_conn_id l : forall k c, get_conn k l = Some c -> c_id c = k.
Proof.
  induction l as [|x l IH]; intros k c H; cbn [get_conn] in H; [discriminate|].
  destruct (N.eqb_spec (c_id x) k) as [E|E]; [|eauto]. injection H as <-. exact E.
Qed.

(** the general form of lookup after update is [upd_at_get] with its instances ([write_msg_get], [do_feed_get],
    [pd_get] ...); the lemmas here are about a bare [put_conn] *)
Lemma get_put_conn l : forall c k,
  get_conn k (put_conn c l) = if c_id c =? k then Some c else get_conn k l.
Proof.
  induction l as [|x l IH]; intros c k; cbn [put_conn get_conn]; [reflexivity|].
  destruct (N.eqb_spec (c_id x) (c_id c)) as [E|E]; cbn [get_conn].
  - destruct (N.eqb_spec (c_id c) k) as [E2|E2]; [reflexivity|].
    destruct (N.eqb_spec (c_id x) k); [congruence|reflexivity].
  - rewrite IH. destruct (N.eqb_spec (c_id x) k) as [E2|E2]; [|reflexivity].
    destruct (N.eqb_spec (c_id c) k); [congruence|reflexivity].
Qed.

Lemma get_put_same l c k : c_id c = k -> get_conn k (put_conn c l) = Some c.
Proof. intros <-. rewrite get_put_conn, N.eqb_refl. reflexivity. Qed.

Lemma get_put_other l c k : c_id c <> k -> get_conn k (put_conn c l) = get_conn k l.
Proof. intros H. rewrite get_put_conn. destruct (N.eqb_spec (c_id c) k); [contradiction|reflexivity]. Qed.

Lemma get_conn_Forall (P : conn -> Prop) k : forall l c, Forall P l -> get_conn k l = Some c -> P c.
Proof.
  induction l as [|x l IH]; intros c H Hg; cbn [get_conn] in Hg; [discriminate|].
  inversion H as [|? ? Hx Hl]; subst. destruct (c_id x =? k); [|eauto].
  injection Hg as <-. exact Hx.
Qed.

Lemma put_conn_Forall (P : conn -> Prop) c : P c -> forall l, Forall P l -> Forall P (put_conn c l).
Proof.
  intros Hc. induction l as [|x l IH]; intros H; cbn [put_conn].
  - constructor; [exact Hc|constructor].
  - inversion H as [|? ? Hx Hl]; subst. destruct (c_id x =? c_id c); constructor; auto.
Qed.

Lemma map_put_conn : forall l c,
  map c_id (put_conn c l) = if memN (c_id c) (map c_id l) then map c_id l else map c_id l ++ [c_id c].
Proof.
  induction l as [|x l IH]; intros c; cbn [put_conn map]; [reflexivity|].
  unfold memN in *. cbn [existsb]. rewrite (N.eqb_sym (c_id c) (c_id x)).
  destruct (N.eqb_spec (c_id x) (c_id c)) as [E|E]; cbn [orb map].
  - rewrite E. reflexivity.
  - rewrite IH. destruct (existsb _ _); reflexivity.
Qed.

Lemma get_put_at l k c c' j : get_conn k l = Some c -> c_id c' = c_id c ->
  get_conn j (put_conn c' l) = if j =? k then Some c' else get_conn j l.
Proof. intros G E. rewrite get_put_conn, E, (get_conn_id _ _ _ G), N.eqb_sym. reflexivity. Qed.

Lemma get_upd_conn w k c c' : get_conn k (w_conns w) = Some c -> c_id c' = c_id c ->
  get_conn k (w_conns (upd_conn w c')) = Some c'.
Proof. intros G E. wsimp. apply get_put_same. rewrite E. exact (get_conn_id _ _ _ G). Qed.

(** [write_msg] and [drop_halves] are instances of [upd_at], by conversion. *)
Definition upd_at (w : world) (k : N) (f : conn -> conn) : world :=
  match get_conn k (w_conns w) with Some c => upd_conn w (f c) | None => w end.

(** This and every "tables" lemma list the fields in the order of [world]. *)
Definition same_tables (w w' : world) : Prop :=
  w_type w' = w_type w /\ w_peers w' = w_peers w /\ w_rr w' = w_rr w /\ w_heap w' = w_heap w /\
  w_counter w' = w_counter w /\ w_streams w' = w_streams w /\ w_reg w' = w_reg w /\
  w_cur w' = w_cur w /\ w_env w' = w_env w /\ w_subs w' = w_subs w.

Lemma same_tables_refl w : same_tables w w.
Proof. repeat split. Qed.

Lemma same_tables_trans a b c : same_tables a b -> same_tables b c -> same_tables a c.
Proof.
  intros A (B1 & B2 & B3 & B4 & B5 & B6 & B7 & B8 & B9 & B10). unfold same_tables.
  rewrite B1, B2, B3, B4, B5, B6, B7, B8, B9, B10. exact A.
Qed.

Lemma same_tables_eq w w' : same_tables w w' -> w' = with_conns w (w_conns w').
Proof.
  destruct w'. unfold same_tables, with_conns, set_w. cbn.
  intros (-> & -> & -> & -> & -> & -> & -> & -> & -> & ->). reflexivity.
Qed.

Lemma upd_at_tables w k f : same_tables w (upd_at w k f).
Proof. unfold upd_at. destruct (get_conn k (w_conns w)); repeat split. Qed.

Lemma upd_at_get w k f j : (forall c, c_id (f c) = c_id c) ->
  get_conn j (w_conns (upd_at w k f)) =
  if j =? k then option_map f (get_conn k (w_conns w)) else get_conn j (w_conns w).
Proof.
  intros Hid. unfold upd_at. destruct (get_conn k (w_conns w)) as [c|] eqn:G; wsimp.
  - exact (get_put_at _ _ _ _ _ G (Hid c)).
  - destruct (N.eqb_spec j k) as [->|]; [exact G|reflexivity].
Qed.

Lemma get_upd_some l l' j k f c :
  get_conn j l' = (if j =? k then option_map f (get_conn k l) else get_conn j l) ->
  get_conn j l = Some c -> get_conn j l' = Some (if j =? k then f c else c).
Proof. intros E G. rewrite E. destruct (N.eqb_spec j k) as [->|_]; [rewrite G|]; easy. Qed.

Lemma fold_upd_at_tables {A} (g : world -> A -> world) :
  (forall w a, same_tables w (g w a)) -> forall l w, same_tables w (fold_left g l w).
Proof.
  intros Hg. induction l as [|a l IH]; intros w; cbn [fold_left]; [apply same_tables_refl|].
  eapply same_tables_trans; [apply Hg|apply IH].
Qed.

Lemma write_msg_tables w k m : same_tables w (write_msg w k m).
Proof. apply upd_at_tables. Qed.

Lemma write_msg_get w k m j :
  get_conn j (w_conns (write_msg w k m)) =
  if j =? k then option_map (fun c => c_with_wire c (c_wire c ++ encode_frames m)) (get_conn k (w_conns w))
  else get_conn j (w_conns w).
Proof. apply upd_at_get. reflexivity. Qed.

Lemma drop_halves_tables w k r wr : same_tables w (drop_halves w k r wr).
Proof. apply upd_at_tables. Qed.

Lemma drop_halves_get w k r wr j :
  get_conn j (w_conns (drop_halves w k r wr)) =
  if j =? k then option_map (fun c => c_with_halves c (c_rd c && negb r) (c_wr c && negb wr)) (get_conn k (w_conns w))
  else get_conn j (w_conns w).
Proof. apply upd_at_get. reflexivity. Qed.

(** what a wake-up, hence an arrival, leaves alone: [same_tables] without the heap and the parked set *)
Definition same_but_wake (w w' : world) : Prop :=
  w_type w' = w_type w /\ w_peers w' = w_peers w /\ w_rr w' = w_rr w /\
  w_counter w' = w_counter w /\ w_streams w' = w_streams w /\
  w_cur w' = w_cur w /\ w_env w' = w_env w /\ w_subs w' = w_subs w.

Lemma fq_wake_conns w k : w_conns (fq_wake w k) = w_conns w.
Proof. unfold fq_wake. destruct (reg_get k (w_reg w)); reflexivity. Qed.

Lemma fq_wake_tables w k : same_but_wake w (fq_wake w k).
Proof. unfold fq_wake. destruct (reg_get k (w_reg w)); repeat split. Qed.

Definition feed_conn (b : bytes) (c : conn) : conn :=
  if is_nil b || c_eof c then c else c_with_in c (c_inq c ++ [b]) (c_eof c).

Lemma feed_conn_keeps b c :
  c_id (feed_conn b c) = c_id c /\ c_wire (feed_conn b c) = c_wire c /\
  c_rd (feed_conn b c) = c_rd c /\ c_wr (feed_conn b c) = c_wr c.
Proof. unfold feed_conn. destruct (is_nil b || c_eof c); repeat split. Qed.

Lemma do_feed_get w k b j :
  get_conn j (w_conns (do_feed w k b)) =
  if j =? k then option_map (feed_conn b) (get_conn k (w_conns w)) else get_conn j (w_conns w).
Proof.
  unfold do_feed, feed_conn. destruct (get_conn k (w_conns w)) as [c|] eqn:G.
  - cbn [option_map]. destruct (is_nil b || c_eof c).
    + destruct (N.eqb_spec j k) as [->|]; [exact G|reflexivity].
    + rewrite fq_wake_conns. apply (get_put_at _ _ _ _ _ G). reflexivity.
  - destruct (N.eqb_spec j k) as [->|]; [exact G|reflexivity].
Qed.

Lemma do_eof_get w k j :
  get_conn j (w_conns (do_eof w k)) =
  if j =? k then option_map (fun c => c_with_in c (c_inq c) true) (get_conn k (w_conns w)) else get_conn j (w_conns w).
Proof.
  unfold do_eof. destruct (get_conn k (w_conns w)) as [c|] eqn:G.
  - rewrite fq_wake_conns. apply (get_put_at _ _ _ _ _ G). reflexivity.
  - destruct (N.eqb_spec j k) as [->|]; [exact G|reflexivity].
Qed.

Lemma do_feed_tables w k b : same_but_wake w (do_feed w k b).
Proof.
  unfold do_feed. destruct (get_conn k (w_conns w)) as [c|]; [|repeat split].
  destruct (is_nil b || c_eof c); [repeat split|]. apply (fq_wake_tables (upd_conn w _)).
Qed.

Lemma do_eof_tables w k : same_but_wake w (do_eof w k).
Proof.
  unfold do_eof. destruct (get_conn k (w_conns w)) as [c|]; [|repeat split].
  apply (fq_wake_tables (upd_conn w _)).
Qed.

Lemma do_feed_peers w k b : w_peers (do_feed w k b) = w_peers w.
Proof. apply do_feed_tables. Qed.

Lemma do_feed_streams w k b : w_streams (do_feed w k b) = w_streams w.
Proof. apply do_feed_tables. Qed.

Lemma do_eof_peers w k : w_peers (do_eof w k) = w_peers w.
Proof. apply do_eof_tables. Qed.

Lemma do_eof_streams w k : w_streams (do_eof w k) = w_streams w.
Proof. apply do_eof_tables. Qed.

Definition is_req (t : stype) : bool := match t with REQ => true | _ => false end.

Lemma pd_tables w k :
  w_type (peer_disconnected w k) = w_type w /\ w_peers (peer_disconnected w k) = delN k (w_peers w) /\
  w_rr (peer_disconnected w k) = w_rr w /\ w_heap (peer_disconnected w k) = w_heap w /\
  w_counter (peer_disconnected w k) = w_counter w /\
  w_streams (peer_disconnected w k) = (if has_fq (w_type w) then delN k (w_streams w) else w_streams w) /\
  w_reg (peer_disconnected w k) = w_reg w /\
  w_cur (peer_disconnected w k) = w_cur w /\ w_env (peer_disconnected w k) = w_env w /\
  w_subs (peer_disconnected w k) = w_subs w.
Proof.
  unfold peer_disconnected, drop_halves. cbv zeta. wsimp.
  destruct (has_fq (w_type w)); destruct (get_conn k (w_conns w)) as [c|]; wsimp;
    try destruct (get_conn k _); repeat split.
Qed.

Lemma pd_peers w k : w_peers (peer_disconnected w k) = delN k (w_peers w).
Proof. apply pd_tables. Qed.

Lemma pd_streams w k :
  w_streams (peer_disconnected w k) = if has_fq (w_type w) then delN k (w_streams w) else w_streams w.
Proof. apply pd_tables. Qed.

Lemma pd_get w k j :
  get_conn j (w_conns (peer_disconnected w k)) =
  if j =? k
  then option_map (fun c => c_with_halves c (if has_fq (w_type w) then false else c_rd c && negb (is_req (w_type w))) false)
                  (get_conn k (w_conns w))
  else get_conn j (w_conns w).
Proof.
  unfold peer_disconnected. fold (is_req (w_type w)). cbv zeta.
  destruct (has_fq (w_type w)).
  - rewrite (drop_halves_get (fq_remove _ k)). wsimp. rewrite !drop_halves_get, N.eqb_refl. wsimp.
    destruct (j =? k); [|reflexivity].
    destruct (get_conn k (w_conns w)) as [c|]; [|reflexivity]. cbn [option_map c_with_halves c_rd c_wr negb].
    rewrite !andb_false_r. reflexivity.
  - rewrite drop_halves_get. wsimp.
    destruct (j =? k); [|reflexivity].
    destruct (get_conn k (w_conns w)) as [c|]; [|reflexivity]. cbn [option_map negb].
    rewrite andb_false_r. reflexivity.
Qed.

(** what one poll, and hence the fair queue, leaves alone in a connection (the read half goes at a clean end) *)
Definition conn_polled (c c' : conn) : Prop :=
  c_id c' = c_id c /\ c_ann c' = c_ann c /\ c_eof c' = c_eof c /\ c_wire c' = c_wire c /\
  c_subs c' = c_subs c /\ c_wr c' = c_wr c.

Lemma conn_polled_refl c : conn_polled c c.
Proof. repeat split. Qed.

Lemma poll_keeps : forall fuel c p c', poll_stream fuel c = (p, c') ->
  conn_polled c c' /\ c_rd c' = c_rd c /\ (p = PEnded -> c_eof c = true).
Proof.
  induction fuel as [|f IH]; intros c p c' H; cbn [poll_stream] in H.
  - injection H as <- <-. repeat split. discriminate.
  - destruct (decode _ _ _) as [[r d] b]. destruct r.
    2-5: injection H as <- <-; repeat split; discriminate.
    destruct (c_inq c) as [|ch rest]; [|exact (IH _ _ _ H)].
    cbv zeta in H. destruct (c_eof c) eqn:E; [destruct (is_nil b)|]; injection H as <- <-;
      repeat split; try discriminate; auto.
Qed.

Lemma poll_id fuel c p c' : poll_stream fuel c = (p, c') -> c_id c' = c_id c.
Proof. intros H. apply (poll_keeps _ _ _ _ H). Qed.

Definition fq_item (w : world) (k : N) (c' : conn) : world :=
  let w2 := upd_conn w c' in
  with_fq w2 (heap_insert (w_counter w2, k) (w_heap w2)) (w_counter w2 + 1) (w_streams w2) (reg_del k (w_reg w2)).
Definition fq_end (w : world) (k : N) (c' : conn) : world :=
  let w2 := upd_conn w (c_with_halves c' false (c_wr c')) in
  with_fq w2 (w_heap w2) (w_counter w2) (delN k (w_streams w2)) (reg_del k (w_reg w2)).
Definition fq_park (w : world) (k p : N) (c' : conn) : world :=
  let w2 := upd_conn w c' in
  with_fq w2 (w_heap w2) (w_counter w2) (w_streams w2) ((k, p) :: reg_del k (w_reg w2)).

(** P: invariant over the entries [fq_next] skips; Q: post-condition.  In the second premise (p, k) is the heap's
    head, popped in w1; first conjunct: the entry is stale, second: k is polled, by outcome. *)
Lemma fq_next_rule (P : world -> Prop) (Q : fq_res -> world -> Prop) :
  (forall w, P w -> Q FPending w) ->
  (forall w p k h, P w -> w_heap w = (p, k) :: h ->
     let w1 := with_fq w h (w_counter w) (w_streams w) (w_reg w) in
     (memN k (w_streams w) = false \/ get_conn k (w_conns w) = None -> P w1) /\
     (forall c pl c', memN k (w_streams w) = true -> get_conn k (w_conns w) = Some c ->
        poll_stream (S (length (c_inq c))) c = (pl, c') ->
        match pl with
        | PItem o => Q (FItem k o) (fq_item w1 k c')
        | PEnded => P (fq_end w1 k c')
        | PPending => P (fq_park w1 k p c')
        end)) ->
  forall fuel w r w', P w -> fq_next fuel w = (r, w') -> Q r w'.
Proof.
  intros H0 HS. induction fuel as [|f IH]; intros w r w' HP H; cbn [fq_next] in H.
  - injection H as <- <-. auto.
  - destruct (w_heap w) as [|[p k] h] eqn:Hh; [injection H as <- <-; auto|].
    destruct (HS w p k h HP Hh) as [Hstale Hpoll]. cbv zeta in H, Hstale, Hpoll. wsimp in H.
    destruct (memN k (w_streams w)) eqn:Hm; cbn [negb] in H; [|apply (IH _ _ _ (Hstale (or_introl eq_refl)) H)].
    destruct (get_conn k (w_conns w)) as [c|] eqn:Hg; [|apply (IH _ _ _ (Hstale (or_intror eq_refl)) H)].
    destruct (poll_stream (S (length (c_inq c))) c) as [pl c'] eqn:HPoll.
    specialize (Hpoll c pl c' eq_refl eq_refl HPoll).
    destruct pl as [o| |].
    + injection H as <- <-. exact Hpoll.
    + exact (IH _ _ _ Hpoll H).
    + exact (IH _ _ _ Hpoll H).
Qed.

Lemma fq_next_pending_empty : forall fuel w w',
  (length (w_heap w) < fuel)%nat -> fq_next fuel w = (FPending, w') -> w_heap w' = [].
Proof.
  induction fuel as [|f IH]; intros w w' Hf H; [lia|]. cbn [fq_next] in H.
  destruct (w_heap w) as [|[p k] h] eqn:Hh; [injection H as <-; exact Hh|].
  cbn [length] in Hf. cbv zeta in H.
  destruct (negb _); [apply IH in H; [exact H|wsimp; lia]|].
  destruct (get_conn _ _) as [c|]; [|apply IH in H; [exact H|wsimp; lia]].
  destruct (poll_stream _ c) as [[o| |] c']; [discriminate| |]; (apply IH in H; [exact H|wsimp; lia]).
Qed.

(** The frame of [fq_next]: a connection is either polled in place or (at a clean end of its stream) loses
    its read half and its registration. *)
Definition fq_frame (w w' : world) : Prop :=
  w_type w' = w_type w /\ w_peers w' = w_peers w /\
  (forall k, memN k (w_streams w') = true -> memN k (w_streams w) = true) /\
  (forall k c, get_conn k (w_conns w) = Some c ->
     exists c', get_conn k (w_conns w') = Some c' /\ conn_polled c c' /\
       ((c_rd c' = c_rd c /\ memN k (w_streams w') = memN k (w_streams w)) \/
        (c_rd c' = false /\ c_eof c = true /\ memN k (w_streams w') = false))).

Lemma fq_frame_refl w : fq_frame w w.
Proof.
  repeat split; auto. intros k c G. exists c. split; [exact G|]. split; [apply conn_polled_refl|].
  left. split; reflexivity.
Qed.

Lemma fq_frame_trans a b c : fq_frame a b -> fq_frame b c -> fq_frame a c.
Proof.
  intros (T1 & P1 & S1 & C1) (T2 & P2 & S2 & C2).
  split; [congruence|]. split; [congruence|]. split; [auto|].
  intros k x G. destruct (C1 k x G) as (y & Gy & (I1 & A1 & F1 & W1 & X1 & Y1) & D1).
  destruct (C2 k y Gy) as (z & Gz & (I2 & A2 & F2 & W2 & X2 & Y2) & D2).
  exists z. split; [exact Gz|]. split; [repeat split; congruence|].
  destruct D1 as [[Ra Ma]|(Ra & Fa & Ma)]; destruct D2 as [[Rb Mb]|(Rb & Fb & Mb)].
  - left. split; congruence.
  - right. repeat split; congruence.
  - right. repeat split; congruence.
  - right. repeat split; congruence.
Qed.

Lemma fq_frame_get w w' k c : fq_frame w w' -> get_conn k (w_conns w) = Some c ->
  exists c', get_conn k (w_conns w') = Some c' /\ conn_polled c c'.
Proof.
  intros (_ & _ & _ & C) G. destruct (C k c G) as (c' & G' & P & _). exists c'. split; assumption.
Qed.

Lemma fq_frame_upd w w' k c c' :
  get_conn k (w_conns w) = Some c -> conn_polled c c' ->
  w_type w' = w_type w -> w_peers w' = w_peers w -> w_conns w' = put_conn c' (w_conns w) ->
  ((c_rd c' = c_rd c /\ w_streams w' = w_streams w) \/
   (c_rd c' = false /\ c_eof c = true /\ w_streams w' = delN k (w_streams w))) ->
  fq_frame w w'.
Proof.
  intros G (I & A & F & W & X & Y) T P C D.
  split; [exact T|]. split; [exact P|]. split.
  - intros j. destruct D as [[_ ->]|(_ & _ & ->)]; [auto|apply memN_delN_sub].
  - intros j x Gj. rewrite C, (get_put_at _ _ _ _ j G I).
    destruct (N.eqb_spec j k) as [->|Hne].
    + rewrite G in Gj. injection Gj as <-. exists c'. split; [reflexivity|]. split; [repeat split; assumption|].
      destruct D as [[Rd ->]|(Rd & Fd & ->)]; [left; split; [exact Rd|reflexivity]|].
      right. split; [exact Rd|]. split; [exact Fd|apply memN_delN_same].
    + exists x. split; [exact Gj|]. split; [apply conn_polled_refl|]. left. split; [reflexivity|].
      destruct D as [[_ ->]|(_ & _ & ->)]; [reflexivity|]. apply memN_delN_other. exact Hne.
Qed.

Lemma fq_next_frame : forall fuel w r w', fq_next fuel w = (r, w') -> fq_frame w w'.
Proof.
  intros fuel w r w' H.
  refine (fq_next_rule (fq_frame w) (fun _ w' => fq_frame w w') _ _ fuel w r w' (fq_frame_refl w) H); [auto|].
  clear. intros w0 p k h HP Hh w1.
  (* w1 is w0 with another heap, of which the frame does not speak *)
  split; [intros _; exact HP|].
  intros c pl c' _ Hg HPoll.
  destruct (poll_keeps _ _ _ _ HPoll) as (CP & Rd & En).
  destruct pl as [o| |]; apply (fq_frame_trans _ _ _ HP).
  1, 2: apply (fq_frame_upd w0 _ k c c' Hg CP); try reflexivity; left; split; [exact Rd|reflexivity].
  apply (fq_frame_upd w0 _ k c (c_with_halves c' false (c_wr c')) Hg CP); try reflexivity.
  right. split; [reflexivity|]. split; [exact (En eq_refl)|reflexivity].
Qed.

Lemma fq_next_type fuel w r w' : fq_next fuel w = (r, w') -> w_type w' = w_type w.
Proof. intros H. apply (fq_next_frame _ _ _ _ H). Qed.

Lemma fq_next_only_registered : forall fuel w k o w',
  fq_next fuel w = (FItem k o, w') -> memN k (w_streams w) = true.
Proof.
  intros fuel w k o w' H.
  refine (fq_next_rule (fun w0 => forall j, memN j (w_streams w0) = true -> memN j (w_streams w) = true)
           (fun r _ => match r with FItem k _ => memN k (w_streams w) = true | _ => True end) _ _ fuel w _ w' _ H); auto.
  clear. intros w0 p k h HP Hh w1. split; [intros _; exact HP|].
  intros c pl c' Hm Hg _. subst w1. destruct pl; unfold fq_end, fq_park; wsimp; auto.
  intros j Hj. exact (HP j (memN_delN_sub _ _ _ Hj)).
Qed.

Definition recv_fuel (w : world) : nat :=
  S (length (w_conns w) + fold_right (fun c a => (conn_bytes c + a)%nat) 0%nat (w_conns w)).

Lemma run_cons w o ops : run w (o :: ops) = let '(bs, w') := step w o in bs ++ run w' ops.
Proof. reflexivity. Qed.

Lemma step_attach w c ann : step w (OAttach c ann) = ([BAtt c ann], do_attach w c ann).
Proof. reflexivity. Qed.

Lemma step_feed w c b : step w (OFeed c b) = ([], do_feed w c b).
Proof. reflexivity. Qed.

Lemma step_recv_fq w : has_fq (w_type w) = true ->
  step w ORecv = let '(b, w') := recv_fq (recv_fuel w) w in ([b], w').
Proof. unfold step. destruct (w_type w); intros H; try discriminate H; reflexivity. Qed.

Lemma step_recv_req w : w_type w = REQ -> step w ORecv = let '(b, w') := recv_req w in ([b], w').
Proof. intros T. unfold step. rewrite T. reflexivity. Qed.

Lemma step_send_rr w m :
  w_type w = PUSH \/ w_type w = DEALER \/ (w_type w = REQ /\ w_cur w = None) ->
  step w (OSend m) = let '(b, w') := send_rr (S (length (w_rr w))) w m in ([b], w').
Proof. unfold step. intros [->|[->|[-> ->]]]; reflexivity. Qed.

Lemma send_rr_head fuel w m k rest : w_rr w = k :: rest -> memN k (w_peers w) = true ->
  send_rr (S fuel) w m =
  (BSendOk, let w2 := with_rr w (rest ++ [k]) in
            match w_type w with
            | REQ => with_cur (write_msg w2 k (req_wrap m)) (Some k) (w_env w)
            | _ => write_msg w2 k m
            end).
Proof.
  intros Hr Hm. cbn [send_rr]. rewrite Hr. cbv zeta. wsimp. rewrite Hm.
  destruct (w_type w); reflexivity.
Qed.

Definition wrap (t : stype) (m : msg) : msg := match t with REQ => req_wrap m | _ => m end.

Lemma send_rr_served fuel w m k rest : w_rr w = k :: rest -> memN k (w_peers w) = true ->
  exists w', send_rr (S fuel) w m = (BSendOk, w') /\
    w_type w' = w_type w /\ w_peers w' = w_peers w /\ w_rr w' = rest ++ [k] /\
    w_cur w' = (if is_req (w_type w) then Some k else w_cur w) /\
    forall j, get_conn j (w_conns w') =
      if j =? k then option_map (fun c => c_with_wire c (c_wire c ++ encode_frames (wrap (w_type w) m)))
                                (get_conn k (w_conns w))
      else get_conn j (w_conns w).
Proof.
  intros Hr Hm. rewrite (send_rr_head fuel w m k rest Hr Hm). eexists. split; [reflexivity|].
  set (w2 := with_rr w (rest ++ [k])).
  destruct (write_msg_tables w2 k (wrap (w_type w) m)) as (T & P & R & _ & _ & _ & _ & U & _).
  pose proof (write_msg_get w2 k (wrap (w_type w) m)) as G.
  remember (w_type w) as t eqn:Et.
  destruct t; cbn [wrap is_req] in *; wsimp; rewrite Et; repeat split; (reflexivity || assumption).
Qed.

(** the state after a run; convertible with [exec] of Proofs/LifecycleProofs.v and Proofs/PubSubWire.v and with
    [wexec] of Proofs/PubSubWireLemmas.v *)
Definition wfinal (w : world) (ops : list op) : world := fold_left (fun w o => snd (step w o)) ops w.

Lemma wfinal_app a b w : wfinal w (a ++ b) = wfinal (wfinal w a) b.
Proof. apply fold_left_app. Qed.

Lemma run_app : forall a b w, run w (a ++ b) = run w a ++ run (wfinal w a) b.
Proof.
  unfold wfinal. induction a as [|x a IH]; intros b w; cbn [app run fold_left]; [reflexivity|].
  destruct (step w x) as [bs w1]. cbn [snd]. rewrite IH, app_assoc. reflexivity.
Qed.

Lemma fold_write_tables c (g : bytes -> msg) : forall ts w,
  same_tables w (fold_left (fun acc t => write_msg acc c (g t)) ts w).
Proof. apply fold_upd_at_tables. intros w a. apply write_msg_tables. Qed.

Lemma fold_write_get c (g : bytes -> msg) j : forall ts w,
  get_conn j (w_conns (fold_left (fun acc t => write_msg acc c (g t)) ts w)) =
  if j =? c then option_map (fun x => c_with_wire x (c_wire x ++ concat (map (fun t => encode_frames (g t)) ts)))
                            (get_conn c (w_conns w))
  else get_conn j (w_conns w).
Proof.
  induction ts as [|t ts IH]; intros w; cbn [fold_left map concat].
  - destruct (N.eqb_spec j c) as [->|]; [|reflexivity].
    destruct (get_conn c (w_conns w)) as [x|]; [|reflexivity]. cbn [option_map]. rewrite app_nil_r.
    destruct x; reflexivity.
  - rewrite IH, !write_msg_get, N.eqb_refl. destruct (j =? c); [|reflexivity].
    destruct (get_conn c (w_conns w)) as [x|]; [|reflexivity]. cbn [option_map c_with_wire c_wire].
    rewrite <- app_assoc. reflexivity.
Qed.

Definition norm_ann (ann : option bytes) : option bytes := match ann with Some [] => None | x => x end.

Definition att_rr (t : stype) : bool := match t with REP | XPUB | PUB => false | _ => true end.

(** SUB's subscription messages and PUSH's dropped read half touch only the connection table *)
Lemma do_attach_eq w c ann : exists conns,
  do_attach w c ann =
  set_w w conns (delN c (w_peers w) ++ [c]) (if att_rr (w_type w) then w_rr w ++ [c] else w_rr w)
    (if has_fq (w_type w) then heap_insert (w_counter w, c) (w_heap w) else w_heap w)
    (if has_fq (w_type w) then w_counter w + 1 else w_counter w)
    (if has_fq (w_type w) && negb (memN c (w_streams w)) then w_streams w ++ [c] else w_streams w)
    (w_reg w) (w_cur w) (w_env w) (w_subs w).
Proof.
  unfold do_attach. cbv zeta.
  rewrite (same_tables_eq _ _ (fold_write_tables c _ _ _)), (same_tables_eq _ _ (drop_halves_tables _ c true false)).
  destruct (w_type w); cbn [has_fq att_rr andb]; rewrite ?if_negb; eexists; reflexivity.
Qed.

Lemma do_attach_tables w c ann :
  w_type (do_attach w c ann) = w_type w /\
  w_peers (do_attach w c ann) = delN c (w_peers w) ++ [c] /\
  w_rr (do_attach w c ann) = (if att_rr (w_type w) then w_rr w ++ [c] else w_rr w) /\
  w_heap (do_attach w c ann) = (if has_fq (w_type w) then heap_insert (w_counter w, c) (w_heap w) else w_heap w) /\
  w_counter (do_attach w c ann) = (if has_fq (w_type w) then w_counter w + 1 else w_counter w) /\
  w_streams (do_attach w c ann) =
    (if has_fq (w_type w) && negb (memN c (w_streams w)) then w_streams w ++ [c] else w_streams w) /\
  w_reg (do_attach w c ann) = w_reg w /\ w_cur (do_attach w c ann) = w_cur w /\
  w_env (do_attach w c ann) = w_env w /\ w_subs (do_attach w c ann) = w_subs w.
Proof. destruct (do_attach_eq w c ann) as [conns ->]. repeat split. Qed.

Lemma do_attach_get w c ann j :
  get_conn j (w_conns (do_attach w c ann)) =
  if j =? c
  then Some (let n := new_conn c (norm_ann ann) in
             match w_type w with
             | SUB => c_with_wire n (concat (map (fun t => encode_frames (sub_msg Gen.sub_op_sub t)) (w_subs w)))
             | PUSH => c_with_halves n false true
             | _ => n
             end)
  else get_conn j (w_conns w).
Proof.
  unfold do_attach. fold (norm_ann ann). cbv zeta.
  destruct (w_type w) eqn:T; cbn [has_fq]; wsimp;
    try (rewrite get_put_conn; cbn [new_conn c_id]; rewrite (N.eqb_sym c j); reflexivity).
  - (* SUB *) rewrite fold_write_get. wsimp. rewrite !get_put_conn. cbn [new_conn c_id].
    rewrite N.eqb_refl, (N.eqb_sym c j). destruct (j =? c); reflexivity.
  - (* PUSH *) rewrite drop_halves_get. wsimp. rewrite !get_put_conn. cbn [new_conn c_id].
    rewrite N.eqb_refl, (N.eqb_sym c j). destruct (j =? c); reflexivity.
Qed.
