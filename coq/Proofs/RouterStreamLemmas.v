(** One [World.step w ORecv] of a ROUTER behaves like a finite, non-empty sequence of fair-queue level
    [WNext] events; the outer fuel of [recv_fq] is never exhausted (measure: registered streams + bytes the
    connections still hold). *)
From Coq Require Import List Arith NArith Lia Bool.
From ZV Require Import Base.Bytes Base.Res Model.Codec Model.World Proofs.Decoder
  Proofs.WorldStreamDefs Proofs.WorldBasics Proofs.WorldStreamLemmas Proofs.WorldWireLemmas.
Import ListNotations.
Open Scope N_scope.

Definition sumb (l : list conn) : nat := fold_right (fun c a => (conn_bytes c + a)%nat) 0%nat l.
Definition mu_w (w : world) : nat := (length (w_streams w) + sumb (w_conns w))%nat.

Lemma put_conn_spec l k c c' : get_conn k l = Some c -> c_id c' = c_id c ->
  length (put_conn c' l) = length l /\ (sumb (put_conn c' l) + conn_bytes c = sumb l + conn_bytes c')%nat.
Proof.
  intros H E. rewrite <- (get_conn_id _ _ _ H), <- E in H. clear k E.
  induction l as [|x l IH]; cbn [get_conn] in H; [discriminate|].
  cbn [put_conn]. destruct (c_id x =? c_id c').
  - injection H as <-. unfold sumb. cbn [length fold_right]. split; [reflexivity|lia].
  - destruct (IH H) as [L S]. unfold sumb in *. cbn [length fold_right]. split; lia.
Qed.

Definition shape (w w' : world) : Prop :=
  length (w_conns w') = length (w_conns w) /\
  (length (w_streams w') <= length (w_streams w))%nat /\
  (forall k, memN k (w_streams w') = true -> memN k (w_streams w) = true) /\
  (anns_none (w_conns w) -> anns_none (w_conns w')).

Definition shrinks (w w' : world) : Prop :=
  shape w w' /\ (sumb (w_conns w') <= sumb (w_conns w))%nat.

Lemma shape_refl w : shape w w.
Proof. split; [reflexivity|split; [lia|split; auto]]. Qed.

Lemma shape_trans a b c : shape a b -> shape b c -> shape a c.
Proof.
  intros (L1 & S1 & M1 & A1) (L2 & S2 & M2 & A2).
  split; [congruence|split; [lia|split; auto]].
Qed.

Lemma shrinks_refl w : shrinks w w.
Proof. split; [apply shape_refl|lia]. Qed.

Lemma shrinks_trans a b c : shrinks a b -> shrinks b c -> shrinks a c.
Proof. intros [H1 B1] [H2 B2]. split; [exact (shape_trans _ _ _ H1 H2)|lia]. Qed.

Lemma shape_ext w w1 w' : w_conns w = w_conns w1 -> w_streams w = w_streams w1 -> shape w1 w' -> shape w w'.
Proof. intros E1 E2. unfold shape. rewrite E1, E2. trivial. Qed.

(** every move of the model on the connection table is of this form: one connection replaced, streams pruned *)
Lemma shrinks_upd w w2 k c c' :
  get_conn k (w_conns w) = Some c -> c_id c' = c_id c -> c_ann c' = c_ann c ->
  w_conns w2 = put_conn c' (w_conns w) ->
  (w_streams w2 = w_streams w \/ exists k, w_streams w2 = delN k (w_streams w)) ->
  shape w w2 /\ ((conn_bytes c' <= conn_bytes c)%nat -> shrinks w w2).
Proof.
  intros Hg Hid Han Hc Hs. destruct (put_conn_spec _ _ _ _ Hg Hid) as [PL PS].
  assert (shape w w2) as Sh.
  { split; [rewrite Hc; exact PL|]. split; [|split].
    - destruct Hs as [->|[k0 ->]]; [lia|apply delN_length_le].
    - intros j. destruct Hs as [->|[k0 ->]]; [auto|apply memN_delN_sub].
    - intros Ha. rewrite Hc. apply put_conn_Forall; [|exact Ha]. rewrite Han. exact (get_conn_Forall _ _ _ _ Ha Hg). }
  split; [exact Sh|]. intros Hb. split; [exact Sh|]. rewrite Hc. lia.
Qed.

Lemma poll_bytes : forall fuel c p c', poll_stream fuel c = (p, c') ->
  (conn_bytes c' <= conn_bytes c)%nat /\
  (1 <= waiting (c_dec c) -> forall i, p = PItem (OItem i) -> (conn_bytes c' < conn_bytes c)%nat).
Proof.
  induction fuel as [|f IH]; intros c p c' H.
  - injection H as <- <-. split; [lia|discriminate].
  - cbn [poll_stream] in H. unfold conn_bytes in *.
    destruct (decode _ (c_dec c) (c_buf c)) as [[r d1] b1] eqn:E.
    pose proof (decode_shrink _ _ _ _ _ _ E) as L.
    destruct r as [|i|e|s|].
    + destruct (c_inq c) as [|ch rest].
      * cbv zeta in H. destruct (c_eof c); [destruct (is_nil b1)|]; injection H as <- <-;
          cbn [c_inq c_buf concat length]; (split; [lia|discriminate]).
      * apply IH in H. destruct H as [H1 H2]. pose proof (decode_none_quiet _ _ _ _ _ E) as Q.
        cbn [c_inq c_buf c_dec concat] in *. unfold bytes in *.
        rewrite !app_length in *. split; [lia|].
        intros _ i0 E0. assert (1 <= waiting d1) as W1 by lia. specialize (H2 W1 i0 E0). lia.
    + injection H as <- <-. cbn [c_inq c_buf].
      split; [lia|]. intros W i0 _. pose proof (decode_item_strict _ _ _ _ _ _ W E). lia.
    + injection H as <- <-. cbn [c_inq c_buf]. split; [lia|discriminate].
    + injection H as <- <-. split; [lia|discriminate].
    + injection H as <- <-. split; [lia|discriminate].
Qed.

Definition allok (w : world) : Prop :=
  forall k c, memN k (w_streams w) = true -> get_conn k (w_conns w) = Some c -> okc c.

Definition fq_post (w : world) (r : fq_res) (w' : world) : Prop :=
  shrinks w w' /\
  match r with
  | FItem k o => memN k (w_streams w') = true /\
      match o with
      | OItem _ => (sumb (w_conns w') < sumb (w_conns w))%nat
      | OErr _ => True
      | _ => False
      end
  | FPending => True
  end.

(** no move of the queue adds a byte or a stream; handing out an item takes at least one byte off its
    connection; nothing but items and errors comes out of well-formed connections *)
Lemma fq_next_measure fuel w r w' : allok w -> fq_next fuel w = (r, w') -> fq_post w r w'.
Proof.
  intros Hok H.
  refine (fq_next_rule (fun w0 => allok w0 /\ shrinks w w0) (fq_post w) _ _ fuel w r w' (conj Hok (shrinks_refl w)) H).
  { intros w0 [_ S]. split; [exact S|exact I]. }
  clear. intros w0 p k h [Hok S] Hh w1. split; [intros _; split; [exact Hok|exact S]|].
  intros c pl c' Hm Hg HP.
  destruct (poll_keeps _ _ _ _ HP) as ((Hid & Han & _) & _).
  destruct (poll_bytes _ _ _ _ HP) as [B1 B2].
  pose proof (Hok k c Hm Hg) as Hc.
  apply poll_post_spec in HP; [|exact Hc|lia].
  destruct pl as [o| |].
  - destruct (shrinks_upd w0 (fq_item w1 k c') k c c' Hg Hid Han eq_refl (or_introl eq_refl)) as [_ S1].
    split; [exact (shrinks_trans _ _ _ S (S1 B1))|]. split; [exact Hm|].
    destruct o as [i|e|s|]; [|exact I|exact HP|exact HP].
    destruct (put_conn_spec _ _ _ _ Hg Hid) as [_ PS]. specialize (B2 (proj2 Hc) i eq_refl).
    destruct S as [_ SB]. unfold fq_item. subst w1. wsimp. lia.
  - destruct (shrinks_upd w0 (fq_park w1 k p c') k c c' Hg Hid Han eq_refl (or_introl eq_refl)) as [_ S1].
    split; [|exact (shrinks_trans _ _ _ S (S1 B1))].
    intros k0 c0. unfold fq_park. subst w1. wsimp. rewrite (get_put_at _ _ _ _ k0 Hg Hid).
    destruct (N.eqb_spec k0 k) as [_|Hne]; [|apply Hok].
    intros _ E. injection E as <-. apply HP.
  - destruct (shrinks_upd w0 (fq_end w1 k c') k c (c_with_halves c' false (c_wr c')) Hg Hid Han eq_refl
               (or_intror (ex_intro _ k eq_refl))) as [_ S1].
    split; [|exact (shrinks_trans _ _ _ S (S1 B1))].
    intros k0 c0. unfold fq_end. subst w1. wsimp.
    rewrite memN_delN, (get_put_at _ _ _ (c_with_halves c' false (c_wr c')) k0 Hg Hid).
    destruct (N.eqb_spec k0 k) as [->|Hne]; [discriminate|apply Hok].
Qed.

Lemma drop_halves_shrinks w k r wr : shrinks w (drop_halves w k r wr).
Proof.
  unfold drop_halves. destruct (get_conn k (w_conns w)) as [c|] eqn:Hg; [|apply shrinks_refl].
  apply (shrinks_upd w _ k c (c_with_halves c (c_rd c && negb r) (c_wr c && negb wr)) Hg); auto.
Qed.

Lemma pd_shrinks w k : has_fq (w_type w) = true -> shrinks w (peer_disconnected w k).
Proof.
  intros Ht. unfold peer_disconnected. rewrite Ht. cbv zeta.
  eapply shrinks_trans; [|apply drop_halves_shrinks].
  eapply shrinks_trans; [apply (drop_halves_shrinks (with_peers w (delN k (w_peers w))))|].
  split; [|apply Nat.le_refl]. split; [reflexivity|]. wsimp. split; [apply delN_length_le|]. split; [|auto].
  intros j. apply memN_delN_sub.
Qed.

Definition Rinv (cs : list N) (w : world) : Prop :=
  anns_none (w_conns w) /\ (length (w_streams w) <= length (w_conns w))%nat /\
  (forall k, memN k (w_streams w) = true -> In k cs).

Lemma shape_arrival w k c c2 : get_conn k (w_conns w) = Some c -> c_id c2 = c_id c -> c_ann c2 = c_ann c ->
  shape w (fq_wake (upd_conn w c2) k).
Proof.
  intros Hg Hid Han.
  refine (proj1 (shrinks_upd w _ k c c2 Hg Hid Han (fq_wake_conns (upd_conn w c2) k) (or_introl _))).
  apply (fq_wake_tables (upd_conn w c2)).
Qed.

Lemma shape_feed w k b : shape w (do_feed w k b).
Proof.
  unfold do_feed. destruct (get_conn k (w_conns w)) as [cn|] eqn:Hg; [|apply shape_refl].
  destruct (is_nil b || c_eof cn); [apply shape_refl|]. apply (shape_arrival w k cn _ Hg); reflexivity.
Qed.

Lemma shape_eof w k : shape w (do_eof w k).
Proof.
  unfold do_eof. destruct (get_conn k (w_conns w)) as [cn|] eqn:Hg; [|apply shape_refl].
  apply (shape_arrival w k cn _ Hg); reflexivity.
Qed.

Lemma allok_of t cs es rs w : Ginv t cs es rs w -> Rinv cs w -> allok w.
Proof.
  intros [_ K] (_ & _ & Hin) k c Hm Hg.
  destruct (K k (Hin k Hm)) as [(c0 & Hg0 & Hok & _)|[Hm' _]]; [|congruence].
  rewrite Hg in Hg0. injection Hg0 as <-. exact Hok.
Qed.

Lemma do_attach_conns w c : has_fq (w_type w) = true -> w_subs w = [] ->
  w_conns (do_attach w c None) = put_conn (new_conn c None) (w_conns w).
Proof.
  intros Ht Hs. unfold do_attach. destruct (w_type w); try discriminate Ht; wsimp; rewrite ?Hs; reflexivity.
Qed.

Lemma attached_Rinv t cs : has_fq t = true -> Rinv cs (attached t cs).
Proof.
  intros Ht.
  enough (map c_id (w_conns (attached t cs)) = w_streams (attached t cs) /\
          anns_none (w_conns (attached t cs)) /\
          (forall k, memN k (w_streams (attached t cs)) = true -> In k cs)) as (M & A & K).
  { split; [exact A|]. split; [|exact K]. rewrite <- M, map_length. lia. }
  induction cs as [|c cs IH] using rev_ind.
  - split; [reflexivity|split; [constructor|]]. intros k H. discriminate.
  - destruct IH as (M1 & A1 & K1). destruct (attached_inv t Ht cs) as (T1 & S1 & _).
    rewrite attached_snoc. set (w := attached t cs) in *.
    assert (has_fq (w_type w) = true) as Ht' by (rewrite T1; exact Ht).
    destruct (do_attach_tables w c None) as (_ & _ & _ & _ & _ & M2 & _).
    rewrite (do_attach_conns w c Ht' S1), M2, Ht', map_put_conn, M1. cbn [new_conn c_id andb]. rewrite if_negb.
    split; [reflexivity|]. split; [apply put_conn_Forall; [reflexivity|exact A1]|].
    intros k Hk. apply in_or_app. destruct (memN c (w_streams w)); [left; apply K1; exact Hk|].
    rewrite memN_snoc in Hk. apply orb_true_iff in Hk as [Hk|Hk]; [left; apply K1; exact Hk|].
    right. left. symmetry. apply N.eqb_eq. exact Hk.
Qed.

(** [Rinv] only needs the [shape] of each event *)
Lemma wrun_Rinv cs es rs w : wrun (attached ROUTER cs) es = (rs, w) -> Rinv cs w.
Proof.
  intros HR. refine (proj2 (wrun_inv ROUTER (fun _ _ w => Rinv cs w) _ _ _ _ es rs w HR)).
  { apply (attached_inv ROUTER eq_refl cs). }
  { apply attached_Rinv. reflexivity. }
  clear. intros es rs w e r w' HR T RI H.
  pose proof (allok_of _ _ _ _ _ (wrun_Ginv ROUTER cs eq_refl es rs w HR) RI) as Hok.
  enough (shape w w') as (L1 & S1 & M1 & A1).
  { destruct RI as (A & L & K). split; [auto|]. split; [lia|]. intros k Hk. apply K, M1, Hk. }
  revert e r w' H. apply (wstep_rule w (fun _ _ w' => shape w w')).
  - intros k b. apply shape_feed.
  - intros k. apply shape_eof.
  - intros [k o|] wa HN; destruct (fq_next_measure _ _ _ _ Hok HN) as [[Hsh _] _]; [|exact Hsh].
    destruct o; [exact Hsh|..]; apply (shape_trans _ _ _ Hsh), pd_shrinks;
      rewrite (fq_next_type _ _ _ _ HN), T; reflexivity.
Qed.

Definition skipped (r : option (N * out)) : Prop :=
  match r with Some (_, OItem (IMessage _)) => False | _ => True end.

Definition recv_sim (cs : list N) (es : list wev) (rs : list (option (N * out))) (res : obs * world) : Prop :=
  exists n pre lastr,
    wrun (attached ROUTER cs) ((es ++ repeat WNext n) ++ [WNext]) = ((rs ++ pre) ++ [lastr], snd res) /\
    Forall skipped pre /\
    ((fst res = BRecvPending /\ lastr = None) \/
     (exists k m, fst res = BRecv (Some k) m /\ lastr = Some (k, OItem (IMessage m)) /\ In k cs)).

Lemma recv_sim_skip cs es rs r res : skipped r ->
  recv_sim cs (es ++ [WNext]) (rs ++ [r]) res -> recv_sim cs es rs res.
Proof.
  intros Q (n & pre & lastr & E & F & D). exists (S n), (r :: pre), lastr.
  split; [|split; [constructor; assumption|exact D]].
  cbn [repeat]. rewrite <- !app_assoc in E. rewrite <- !app_assoc. exact E.
Qed.

(** the fuel bounds [mu_w]: a skipped item takes a byte off its connection, an error deregisters a stream *)
Lemma recv_fq_sim cs : forall f es rs w,
  wrun (attached ROUTER cs) es = (rs, w) -> (mu_w w < f)%nat -> recv_sim cs es rs (recv_fq f w).
Proof.
  induction f as [|f IH]; intros es rs w HR Hmu; [lia|].
  destruct (wrun_Ginv ROUTER cs eq_refl es rs w HR) as [Ty K].
  pose proof (wrun_Rinv cs es rs w HR) as RI.
  pose proof (allok_of _ _ _ _ _ (conj Ty K) RI) as Hok. destruct RI as (RA & RL & RK).
  assert (wrun (attached ROUTER cs) (es ++ [WNext]) = let '(r, w2) := wstep w WNext in (rs ++ [r], w2)) as HR1
    by (rewrite wrun_snoc, HR; reflexivity).
  rewrite wstep_next in HR1. unfold next_fuel in HR1. cbn [recv_fq].
  destruct (fq_next _ w) as [fr w1] eqn:HN.
  destruct (fq_next_measure _ _ _ _ Hok HN) as [[(SL & SS & SM & SA) SB] Hpost].
  unfold mu_w in *.
  destruct fr as [k [i|e|s|]|].
  - destruct Hpost as [Hm Hlt].
    destruct i as [g|ps|m]; [refine (recv_sim_skip _ _ _ _ _ _ (IH _ _ _ HR1 _)); [exact I|lia]..|].
    rewrite Ty. exists 0%nat, [], (Some (k, OItem (IMessage m))). cbn [repeat]. rewrite !app_nil_r.
    destruct (get_conn k (w_conns w1)) as [c|] eqn:Hg; [rewrite (get_conn_Forall _ _ _ _ (SA RA) Hg)|];
      (split; [exact HR1|]; split; [constructor|]; right; exists k, m; auto).
  - destruct Hpost as [Hm _]. rewrite Ty. cbv zeta.
    refine (recv_sim_skip _ _ _ _ _ _ (IH _ _ _ HR1 _)); [exact I|].
    assert (has_fq (w_type w1) = true) as Ht1 by (rewrite (fq_next_type _ _ _ _ HN), Ty; reflexivity).
    destruct (pd_shrinks w1 k Ht1) as [_ PB]. rewrite pd_streams, Ht1. pose proof (delN_length_lt k _ Hm). lia.
  - destruct Hpost as [_ []].
  - destruct Hpost as [_ []].
  - exists 0%nat, [], None. cbn [repeat]. rewrite !app_nil_r.
    split; [exact HR1|]. split; [constructor|]. left. split; reflexivity.
Qed.

Lemma step_recv_sim cs es rs w :
  wrun (attached ROUTER cs) es = (rs, w) ->
  exists b w', World.step w ORecv = ([b], w') /\ recv_sim cs es rs (b, w').
Proof.
  intros HR.
  destruct (wrun_Ginv ROUTER cs eq_refl es rs w HR) as [Ty _].
  destruct (wrun_Rinv cs es rs w HR) as (_ & RL & _).
  rewrite step_recv_fq by (rewrite Ty; reflexivity).
  assert (mu_w w < recv_fuel w)%nat as Hmu by (unfold mu_w, recv_fuel, sumb; lia).
  pose proof (recv_fq_sim cs _ es rs w HR Hmu) as X.
  destruct (recv_fq (recv_fuel w) w) as [b w']. exists b, w'. split; [reflexivity|exact X].
Qed.

Lemma nexts_irrelevant k : forall n es,
  chunks_of k (es ++ repeat WNext n) = chunks_of k es /\ closed_of k (es ++ repeat WNext n) = closed_of k es.
Proof.
  induction n as [|n IH]; intros es; cbn [repeat].
  - rewrite app_nil_r. split; reflexivity.
  - change (es ++ WNext :: repeat WNext n) with (es ++ [WNext] ++ repeat WNext n).
    rewrite app_assoc. destruct (IH (es ++ [WNext])) as [-> ->]. apply next_irrelevant.
Qed.
