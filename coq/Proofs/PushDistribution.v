(** C10 in closed form: a PUSH or DEALER socket with n connected peers writes the i-th message (counting from 0)
    whole to peer number (i mod n) in joining order - every message to exactly one peer, in strict rotation.
    The rotation invariant is stated for every socket type that sends round robin, so that the REQ socket
    (Proofs/ReqRotation.v) and the one-round statement about [sends] (Proofs/SocketProofs.v) use it too. *)
From Coq Require Import List Arith NArith Lia Bool.
From ZV Require Import Base.Bytes Base.Res Model.Codec Model.World Proofs.BytesProofs Proofs.WorldBasics.
Import ListNotations.
Open Scope N_scope.

(** the messages at positions i, i+n, i+2n, ... *)
Definition share (i n : nat) (ms : list msg) : list msg :=
  map snd (filter (fun jm => Nat.eqb (Nat.modulo (fst jm) n) i) (combine (seq 0 (length ms)) ms)).

Lemma combine_snoc {A B} : forall (l1 : list A) (l2 : list B) x y, length l1 = length l2 ->
  combine (l1 ++ [x]) (l2 ++ [y]) = combine l1 l2 ++ [(x, y)].
Proof.
  induction l1 as [|a l1 IH]; intros [|b l2] x y Hlen; try discriminate Hlen; [reflexivity|].
  cbn [app combine]. rewrite IH by (injection Hlen as Hlen; exact Hlen). reflexivity.
Qed.

Lemma concat_map_snoc {A} (f : A -> bytes) l x : concat (map f (l ++ [x])) = concat (map f l) ++ f x.
Proof. rewrite map_app, concat_app. cbn [map concat]. rewrite app_nil_r. reflexivity. Qed.

Lemma share_snoc i n l m :
  share i n (l ++ [m]) = if Nat.eqb (Nat.modulo (length l) n) i then share i n l ++ [m] else share i n l.
Proof.
  unfold share. rewrite app_length. cbn [length]. rewrite seq_app. cbn [seq Nat.add].
  rewrite combine_snoc by (rewrite seq_length; reflexivity).
  rewrite filter_app, map_app. cbn [filter fst].
  destruct (Nat.eqb (Nat.modulo (length l) n) i); cbn [map snd]; [reflexivity|apply app_nil_r].
Qed.

Lemma share_round i n : forall l, (length l <= n)%nat ->
  share i n l = match nth_error l i with Some m => [m] | None => [] end.
Proof.
  induction l as [|m l IH] using rev_ind; intros Hl; [destruct i; reflexivity|].
  rewrite app_length in Hl. cbn [length] in Hl.
  rewrite share_snoc, IH, Nat.mod_small by lia.
  destruct (Nat.eqb_spec (length l) i) as [<-|E].
  - rewrite nth_error_app2, Nat.sub_diag by lia.
    rewrite (proj2 (nth_error_None l (length l))) by lia. reflexivity.
  - destruct (Nat.lt_ge_cases i (length l)) as [Hi|Hi]; [rewrite nth_error_app1 by exact Hi; reflexivity|].
    rewrite !(proj2 (nth_error_None _ i)) by (rewrite ?app_length; cbn [length]; lia). reflexivity.
Qed.

Lemma share_one (ms : list msg) : share 0 1 ms = ms.
Proof.
  induction ms as [|m ms IH] using rev_ind; [reflexivity|].
  rewrite share_snoc, Nat.mod_1_r, IH. reflexivity.
Qed.

Definition rot {A} (r : nat) (l : list A) : list A := skipn r l ++ firstn r l.

Lemma rot_0 {A} (l : list A) : rot 0 l = l.
Proof. apply app_nil_r. Qed.

Lemma rot_app {A} (a b : list A) : rot (length a) (a ++ b) = b ++ a.
Proof. unfold rot. rewrite firstn_app_exact, skipn_app_exact by reflexivity. reflexivity. Qed.

(** after j steps the head is member number (j mod n); serving it and moving it to the back is step j+1 *)
Lemma rot_step {A} (l : list A) j : l <> [] ->
  exists k rest, rot (j mod length l) l = k :: rest /\ nth_error l (j mod length l) = Some k /\
                 rest ++ [k] = rot (S j mod length l) l.
Proof.
  intros Hne. assert (length l <> 0%nat) as Hn by (destruct l; [congruence|discriminate]).
  replace (S j mod length l)%nat with (S (j mod length l) mod length l)%nat
    by (rewrite <- Nat.add_1_r, Nat.add_mod_idemp_l, Nat.add_1_r by exact Hn; reflexivity).
  pose proof (Nat.mod_upper_bound j _ Hn) as Hr.
  destruct (nth_error l (j mod length l)) as [k|] eqn:Hk; [|apply nth_error_None in Hk; lia].
  destruct (nth_error_split l _ Hk) as (a & b & -> & <-). clear Hk Hr Hn Hne.
  exists k, (b ++ a). rewrite rot_app. split; [reflexivity|]. split; [reflexivity|].
  rewrite app_length. cbn [length]. destruct b as [|k2 b]; cbn [length].
  - rewrite Nat.add_1_r, Nat.mod_same, rot_0 by discriminate. reflexivity.
  - rewrite Nat.mod_small by lia. change (a ++ k :: k2 :: b) with (a ++ [k] ++ k2 :: b).
    replace (S (length a)) with (length (a ++ [k])) by (rewrite app_length; cbn [length]; lia).
    rewrite (app_assoc a [k]), rot_app, <- app_assoc. reflexivity.
Qed.

Section Rotation.
  (** [cs]: the peers in joining order; [Q]: whatever else is known of each connection, as long as writing to
      it does not disturb it; [base k]: what was on k's wire when counting began *)
  Variables (t : stype) (Q : conn -> Prop) (cs : list N) (base : N -> bytes).

  Definition rr_inv (done : list msg) (w : world) : Prop :=
    w_type w = t /\ w_rr w = rot (length done mod length cs) cs /\
    (forall k, In k cs -> memN k (w_peers w) = true) /\
    forall i k, nth_error cs i = Some k ->
      exists cn, get_conn k (w_conns w) = Some cn /\ Q cn /\
        c_wire cn = base k ++ concat (map (fun p => encode_frames (wrap t p)) (share i (length cs) done)).

  Hypotheses (HQ : forall c x, Q c -> Q (c_with_wire c x)) (Hnd : NoDup cs) (Hne : cs <> []).

  Lemma rr_inv_send done w m fuel : rr_inv done w ->
    exists w', send_rr (S fuel) w m = (BSendOk, w') /\ rr_inv (done ++ [m]) w' /\ w_peers w' = w_peers w /\
               (t = REQ -> w_cur w' = Some (nth (length done mod length cs) cs 0)).
  Proof.
    intros (T & Hrr & Hp & Hc).
    destruct (rot_step cs (length done) Hne) as (k & rest & Hrot & Hk & Hrot').
    rewrite Hrot in Hrr.
    destruct (send_rr_served fuel w m k rest Hrr (Hp k (nth_error_In _ _ Hk))) as (w' & S & T' & P' & R' & U' & G').
    exists w'. split; [exact S|]. split; [|split; [exact P'|]].
    - split; [congruence|]. split; [|split].
      + rewrite R', Hrot', app_length, Nat.add_1_r. reflexivity.
      + intros k' Hk'. rewrite P'. exact (Hp k' Hk').
      + intros i k' Hi. destruct (Hc i k' Hi) as (cn & Hg & Hq & Hw).
        rewrite G', share_snoc, T. destruct (Nat.eqb_spec (length done mod length cs) i) as [<-|E].
        * assert (k' = k) as -> by congruence. rewrite N.eqb_refl, Hg. eexists. split; [reflexivity|].
          split; [apply HQ, Hq|]. cbn [c_with_wire c_wire].
          rewrite Hw, concat_map_snoc, <- app_assoc. reflexivity.
        * destruct (N.eqb_spec k' k) as [->|_]; [|exists cn; auto].
          exfalso. apply E. apply (proj1 (NoDup_nth_error cs) Hnd); [apply nth_error_Some|]; congruence.
    - intros ->. rewrite U', T. cbn [is_req]. f_equal. symmetry. apply nth_error_nth. exact Hk.
  Qed.

  Lemma run_sends ops : t = PUSH \/ t = DEALER -> forall ms done w, rr_inv done w ->
    exists w', run w (map OSend ms ++ ops) = repeat BSendOk (length ms) ++ run w' ops /\ rr_inv (done ++ ms) w'.
  Proof.
    intros Ht. induction ms as [|m ms IH]; intros done w Hw.
    - exists w. rewrite app_nil_r. split; [reflexivity|exact Hw].
    - destruct (rr_inv_send done w m (length (w_rr w)) Hw) as (w1 & S1 & Hw1 & _).
      destruct (IH _ _ Hw1) as (w' & R & Hw').
      exists w'. cbn [map app run length repeat]. rewrite step_send_rr, S1, R, <- app_assoc in *.
      + split; [reflexivity|exact Hw'].
      + destruct Hw as [T _]. rewrite T. destruct Ht as [-> | ->]; auto.
  Qed.

  Lemma rr_inv_upd done w w' k c' : rr_inv done w ->
    w_type w' = w_type w -> w_rr w' = w_rr w -> w_peers w' = w_peers w ->
    (forall j, get_conn j (w_conns w') = if j =? k then Some c' else get_conn j (w_conns w)) ->
    Q c' -> (forall c, get_conn k (w_conns w) = Some c -> c_wire c' = c_wire c) ->
    rr_inv done w'.
  Proof.
    intros (T & Hrr & Hp & Hc) T' R' P' G' Hq Hw.
    split; [congruence|]. split; [congruence|]. split; [intros j Hj; rewrite P'; exact (Hp j Hj)|].
    intros i j Hi. destruct (Hc i j Hi) as (cn & Hg & Hqn & Hwn). rewrite G'.
    destruct (N.eqb_spec j k) as [->|_]; [|exists cn; auto].
    exists c'. split; [reflexivity|]. split; [exact Hq|]. rewrite (Hw cn Hg). exact Hwn.
  Qed.
End Rotation.

Definition joined_conn (t : stype) (k : N) : conn :=
  match t with PUSH => c_with_halves (new_conn k None) false true | _ => new_conn k None end.

Definition joined (t : stype) (pre : list N) (w : world) : Prop :=
  w_type w = t /\ w_cur w = None /\ w_rr w = pre /\
  forall k, In k pre -> memN k (w_peers w) = true /\ get_conn k (w_conns w) = Some (joined_conn t k).

Lemma joined_world0 t : joined t [] (world0 t).
Proof. repeat split; contradiction. Qed.

Lemma joined_step t pre w c : t = PUSH \/ t = DEALER \/ t = REQ ->
  joined t pre w -> joined t (pre ++ [c]) (do_attach w c None).
Proof.
  intros Ht (T & Hcur & Hrr & Hc).
  destruct (do_attach_tables w c None) as (T' & P' & R' & _ & _ & _ & _ & U' & _).
  split; [congruence|]. split; [congruence|]. split.
  - rewrite R', T, Hrr. destruct Ht as [-> | [-> | ->]]; reflexivity.
  - intros k Hk. rewrite P', memN_snoc, memN_delN, do_attach_get, T.
    destruct (N.eqb_spec k c) as [->|Hkc].
    + split; [apply orb_true_r|]. destruct Ht as [-> | [-> | ->]]; reflexivity.
    + apply in_app_or in Hk. destruct Hk as [Hk|[E|[]]]; [|congruence].
      destruct (Hc k Hk) as [Hm Hg]. rewrite Hm. split; [reflexivity|exact Hg].
Qed.

Lemma run_attaches t ops : t = PUSH \/ t = DEALER \/ t = REQ -> forall l pre w, joined t pre w ->
  exists w', run w (map (fun c => OAttach c None) l ++ ops) = map (fun c => BAtt c None) l ++ run w' ops /\
             joined t (pre ++ l) w'.
Proof.
  intros Ht. induction l as [|c l IH]; intros pre w Hw.
  - exists w. rewrite app_nil_r. split; [reflexivity|exact Hw].
  - destruct (IH (pre ++ [c]) _ (joined_step t pre w c Ht Hw)) as (w' & R & Hw').
    exists w'. cbn [map app run step]. rewrite R, <- app_assoc in *. split; [reflexivity|exact Hw'].
Qed.

Lemma rr_inv_start t (Q : conn -> Prop) cs w : (forall k, Q (joined_conn t k)) -> joined t cs w -> rr_inv t Q cs (fun _ => []) [] w.
Proof.
  intros HQ (T & _ & Hrr & Hc).
  split; [exact T|]. split; [|split; [intros k Hk; apply (Hc k Hk)|]].
  { rewrite Hrr. destruct cs; [reflexivity|]. cbn [length]. rewrite Nat.mod_0_l by discriminate. symmetry. apply rot_0. }
  intros i k Hi. exists (joined_conn t k). split; [apply (Hc k), (nth_error_In _ _ Hi)|]. split; [apply HQ|].
  destruct t; reflexivity.
Qed.

Lemma run_wires : forall l off w (g : nat -> bytes), NoDup l ->
  (forall i k, nth_error l i = Some k -> exists cn, get_conn k (w_conns w) = Some cn /\ c_wire cn = g (off + i)%nat) ->
  run w (map OWire l) = map (fun ic => BWire (snd ic) (g (fst ic))) (combine (seq off (length l)) l).
Proof.
  induction l as [|k l IH]; intros off w g Hnd Hc; [reflexivity|].
  inversion Hnd as [|? ? Hnotin Hnd']; subst.
  destruct (Hc 0%nat k eq_refl) as (cn & Hg & Hw). rewrite Nat.add_0_r in Hw.
  cbn [map run step length seq combine fst snd]. rewrite Hg, Hw. cbn [app]. f_equal.
  apply IH; [exact Hnd'|].
  intros i k' Hi. destruct (Hc (S i) k' Hi) as (cn' & Hg' & Hw').
  exists cn'. rewrite Nat.add_succ_comm. split; [|exact Hw'].
  wsimp. rewrite get_put_other; [exact Hg'|].
  cbn [c_id c_with_wire]. rewrite (get_conn_id _ _ _ Hg). intros ->. exact (Hnotin (nth_error_In _ _ Hi)).
Qed.

Theorem push_distributes : forall t cs ms,
  t = PUSH \/ t = DEALER -> NoDup cs -> cs <> [] ->
  World.run (world0 t) (map (fun c => OAttach c None) cs ++ map OSend ms ++ map OWire cs) =
  map (fun c => BAtt c None) cs ++ repeat BSendOk (length ms) ++
  map (fun ic => BWire (snd ic) (concat (map encode_frames (share (fst ic) (length cs) ms)))) (combine (seq 0 (length cs)) cs).
Proof.
  intros t cs ms Ht Hnd Hne.
  assert (t = PUSH \/ t = DEALER \/ t = REQ) as Ht' by tauto.
  destruct (run_attaches t (map OSend ms ++ map OWire cs) Ht' cs [] _ (joined_world0 t)) as (w1 & R1 & H1).
  rewrite R1. f_equal.
  destruct (run_sends t (fun _ => True) cs _ (fun _ _ _ => I) Hnd Hne (map OWire cs) Ht ms [] w1
              (rr_inv_start t _ cs w1 (fun _ => I) H1))
    as (w2 & R2 & _ & _ & _ & Hc).
  rewrite R2. f_equal.
  apply (run_wires cs 0%nat w2 (fun i => concat (map encode_frames (share i (length cs) ms))) Hnd).
  intros i k Hi. destruct (Hc i k Hi) as (cn & Hg & _ & Hw).
  exists cn. split; [exact Hg|]. rewrite Hw. destruct Ht as [-> | ->]; reflexivity.
Qed.

Definition pd_ms : list msg := [[[1]];[[2];[]];[[3]];[[4]];[[5]];[[6]];[[7]]].
Example pd_sample :
  World.run (world0 DEALER) (map (fun c => OAttach c None) [5;2;9] ++ map OSend pd_ms ++ map OWire [5;2;9]) =
  [BAtt 5 None; BAtt 2 None; BAtt 9 None; BSendOk; BSendOk; BSendOk; BSendOk; BSendOk; BSendOk; BSendOk;
   BWire 5 [0; 1; 1; 0; 1; 4; 0; 1; 7]; BWire 2 [1; 1; 2; 0; 0; 0; 1; 5]; BWire 9 [0; 1; 3; 0; 1; 6]].
Proof. vm_compute. reflexivity. Qed.

Print Assumptions push_distributes.
