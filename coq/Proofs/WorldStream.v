(** C05 / C06 at the level of the whole socket model (Model/World.v): per connection, the fair queue hands
    out exactly the items the connection's byte stream contains - in order, each once, none lost. *)
From Coq Require Import List Arith NArith Lia Bool.
From ZV Require Import Base.Bytes Base.Res Model.Codec Model.World Proofs.WorldStreamDefs.
From ZV Require Import Proofs.WorldStreamLemmas.
Import ListNotations.
Open Scope N_scope.

(** In order, exactly once, nothing invented: whatever the interleaving of arrivals, closes and recv
    calls, the items handed out for connection k are a prefix of the declarative reading of what k's peer wrote *)
Theorem world_stream_prefix : forall t cs es k,
  has_fq t = true -> In k cs ->
  is_prefix_of (outs_of k (fst (wrun (attached t cs) es))) (expected (chunks_of k es) (closed_of k es)).
Proof.
  intros t cs es k Ht Hk.
  destruct (wrun (attached t cs) es) as [rs w] eqn:HR. cbn [fst].
  destruct (wrun_Ginv t cs Ht es rs w HR) as [_ K].
  exact (st_prefix k _ _ _ w (K k Hk)).
Qed.

(** Nothing lost, no lost wake-up: when a recv finds nothing to hand out (the call parks), every
    connection has been read to the end of what its peer wrote so far *)
Theorem world_stream_complete : forall t cs es rs w,
  has_fq t = true ->
  wrun (attached t cs) (es ++ [WNext]) = (rs, w) -> last rs None = None ->
  forall k, In k cs -> outs_of k rs = expected (chunks_of k es) (closed_of k es).
Proof.
  intros t cs es rs w Ht HR Hlast k Hk.
  destruct (wrun_Ginv t cs Ht _ rs w HR) as [_ K]. specialize (K k Hk).
  destruct (next_irrelevant k es) as [Ec El]. rewrite Ec, El in K.
  apply (st_complete k _ _ _ w K).
  rewrite wrun_snoc in HR. destruct (wrun (attached t cs) es) as [rs0 w0].
  destruct (wstep w0 WNext) as [r w1] eqn:HS. injection HR as <- <-.
  rewrite last_last in Hlast. subst r. exact (wstep_none_drained _ _ HS).
Qed.

Definition ws_m1 := encode_frames [[1;2;3];[4]].
Definition ws_m2 := encode_frames [[9]].
Definition ws_es := [WNext; WFeed 0 (firstn 3 ws_m1); WNext; WFeed 1 ws_m2; WFeed 0 (skipn 3 ws_m1 ++ ws_m2); WNext; WNext; WNext; WNext; WFeed 1 [5]; WEof 1; WNext; WNext; WEof 0; WNext].
Example ws_sample :
  outs_of 0 (fst (wrun (attached PULL [0;1]) (ws_es ++ [WNext]))) = [OItem (IMessage [[1; 2; 3]; [4]]); OItem (IMessage [[9]])] /\
  outs_of 1 (fst (wrun (attached PULL [0;1]) (ws_es ++ [WNext]))) = [OItem (IMessage [[9]])] /\
  last (fst (wrun (attached PULL [0;1]) (ws_es ++ [WNext]))) None = None.
Proof. vm_compute. repeat split; reflexivity. Qed.

Print Assumptions world_stream_prefix.
Print Assumptions world_stream_complete.
