(** C01: the encoders against the independent RFC parser. *)
From ZV Require Import Base.Bytes Base.Res Spec.Rfc23 Model.Codec Proofs.BytesProofs.
From Coq Require Import Permutation.

Lemma gen_greeting_constants :
  Gen.gr_len = 64 /\ Gen.gr_sig0_off = 0 /\ Gen.gr_sig0 = 255 /\ Gen.gr_sig9_off = 9 /\ Gen.gr_sig9 = 127 /\
  Gen.gr_major_off = 10 /\ Gen.gr_minor_off = 11 /\ Gen.gr_mech_off = 12 /\ Gen.gr_server_off = 32 /\
  Gen.gr_default_major = 3 /\ Gen.gr_default_minor = 0.
Proof. repeat split; reflexivity. Qed.

Definition frame_ok (f : bytes) : Prop := bytes_ok f = true /\ lenN f < 2 ^ 64.
Definition wf_msg (m : list bytes) : Prop := m <> [] /\ Forall frame_ok m.

Lemma frame_hdr_eq more len :
  frame_hdr more len =
    if 255 <? len then (if more then 3 else 2) :: be 8 len else (if more then 1 else 0) :: be 1 len.
Proof.
  unfold frame_hdr, frame_flags.
  change Gen.enc_short_max with 255. change Gen.enc_short_max2 with 255.
  change Gen.enc_flag_more with 1. change Gen.enc_flag_long with 2.
  change (N.to_nat Gen.enc_long_width) with 8%nat. change (N.to_nat Gen.enc_short_width) with 1%nat.
  destruct (255 <? len), more; reflexivity.
Qed.

Lemma encode_frame_shape more f :
  encode_frame more f =
    if lenN f <=? 255 then [if more then 1 else 0; lenN f] ++ f
    else ((if more then 3 else 2) :: be 8 (lenN f)) ++ f.
Proof.
  unfold encode_frame. rewrite frame_hdr_eq, N.leb_antisym.
  destruct (N.ltb_spec 255 (lenN f)); [reflexivity|]. rewrite be_1 by lia. reflexivity.
Qed.

Lemma rfc_frame_sized fl c l m body rest :
  rfc_flags fl = Some (c, l, m) -> lenN body < 256 ^ (if l then 8 else 1) ->
  rfc_frame (fl :: be (if l then 8 else 1) (lenN body) ++ body ++ rest) =
    Some ({| wf_cmd := c; wf_long := l; wf_more := m; wf_body := body |}, rest).
Proof.
  intros Hf Hl. cbn [rfc_frame]. rewrite Hf. destruct l.
  - destruct (sized_field 8 body rest Hl) as (A & B & C & D). cbv zeta in *.
    change (N.of_nat 8) with 8 in A. rewrite A, B, C, D. reflexivity.
  - change (256 ^ 1) with 256 in Hl. rewrite be_1 by exact Hl. cbn [app].
    rewrite lenN_app_ltb, firstnN_app_exact, skipnN_app_exact. reflexivity.
Qed.

Lemma rfc_frame_encode more f rest : frame_ok f ->
  rfc_frame (encode_frame more f ++ rest) =
    Some ({| wf_cmd := false; wf_long := 255 <? lenN f; wf_more := more; wf_body := f |}, rest).
Proof.
  intros [_ Hl]. unfold encode_frame. rewrite frame_hdr_eq, <- app_assoc.
  destruct (N.ltb_spec 255 (lenN f)); cbn [app].
  - apply (rfc_frame_sized _ false true more); [destruct more; reflexivity|exact Hl].
  - apply (rfc_frame_sized _ false false more); [destruct more; reflexivity|]. change (256 ^ 1) with 256. lia.
Qed.

(** [encode_frames] without the special case for the last frame *)
Definition has_more (m : list bytes) : bool := match m with [] => false | _ => true end.

Lemma encode_frames_cons f m : encode_frames (f :: m) = encode_frame (has_more m) f ++ encode_frames m.
Proof. destruct m; [symmetry; apply app_nil_r|reflexivity]. Qed.

Lemma rfc_message_fuel_encode m : m <> [] -> Forall frame_ok m ->
  forall fuel rest, (length m <= fuel)%nat ->
  rfc_message_fuel fuel (encode_frames m ++ rest) = Some (m, rest).
Proof.
  induction m as [|f m IH]; [congruence|]. intros _ Hall fuel rest Hfuel.
  inversion Hall as [|? ? Hf Hm]; subst. cbn [length] in Hfuel.
  destruct fuel as [|fuel]; [lia|].
  rewrite encode_frames_cons, <- app_assoc. cbn [rfc_message_fuel]. rewrite rfc_frame_encode by assumption.
  cbn [wf_cmd wf_more wf_body]. destruct m as [|g m']; [reflexivity|]. cbn [has_more].
  rewrite IH; [reflexivity|congruence|assumption|lia].
Qed.

Lemma encode_frame_length more f :
  length (encode_frame more f) = (length f + (if (lenN f <=? 255)%N then 2 else 9))%nat.
Proof.
  rewrite encode_frame_shape. destruct (lenN f <=? 255); rewrite app_length; cbn [length]; [lia|].
  rewrite be_length. lia.
Qed.

Fixpoint wire_len (m : list bytes) : nat :=
  match m with [] => 0%nat | f :: t => (length f + (if (lenN f <=? 255)%N then 2 else 9) + wire_len t)%nat end.

Theorem encode_length m : length (encode_frames m) = wire_len m.
Proof.
  induction m as [|f m IH]; [reflexivity|].
  rewrite encode_frames_cons, app_length, encode_frame_length, IH. reflexivity.
Qed.

Lemma encode_frames_length m : (length m <= length (encode_frames m))%nat.
Proof.
  rewrite encode_length. induction m as [|f m IH]; cbn [length wire_len]; [lia|].
  destruct (lenN f <=? 255); lia.
Qed.

Definition mk_wf (more : bool) (f : bytes) : wire_frame :=
  {| wf_cmd := false; wf_long := 255 <? lenN f; wf_more := more; wf_body := f |}.

Fixpoint wire_frames (m : list bytes) : list wire_frame :=
  match m with
  | [] => []
  | [f] => [mk_wf false f]
  | f :: rest => mk_wf true f :: wire_frames rest
  end.

Lemma wire_frames_cons f m : wire_frames (f :: m) = mk_wf (has_more m) f :: wire_frames m.
Proof. destruct m; reflexivity. Qed.

Lemma rfc_frames_fuel_encode m : Forall frame_ok m ->
  forall fuel, (length m < fuel)%nat -> rfc_frames_fuel fuel (encode_frames m) = Some (wire_frames m).
Proof.
  induction m as [|f m IH]; intros Hall fuel Hfuel; (destruct fuel as [|fuel]; [lia|]); [reflexivity|].
  inversion Hall as [|? ? Hf Hm]; subst. cbn [length] in Hfuel.
  rewrite encode_frames_cons, wire_frames_cons.
  pose proof (rfc_frame_encode (has_more m) f (encode_frames m) Hf) as R.
  cbn [rfc_frames_fuel]. destruct (encode_frame (has_more m) f ++ encode_frames m) as [|b t]; [discriminate R|].
  rewrite R, IH by (assumption || lia). reflexivity.
Qed.

Theorem encode_frames_rfc_frames m : Forall frame_ok m ->
  rfc_frames (encode_frames m) = Some (wire_frames m).
Proof.
  intros H. unfold rfc_frames. apply rfc_frames_fuel_encode; [assumption|].
  pose proof (encode_frames_length m). lia.
Qed.

Lemma wire_frames_more m : m <> [] ->
  map wf_more (wire_frames m) = repeat true (length m - 1) ++ [false].
Proof.
  induction m as [|f m IH]; [congruence|]. intros _. rewrite wire_frames_cons.
  destruct m as [|g m']; [reflexivity|]. cbn [map wf_more mk_wf has_more]. rewrite IH by congruence.
  cbn [length]. replace (S (S (length m')) - 1)%nat with (S (S (length m') - 1)) by lia. reflexivity.
Qed.

Lemma wire_frames_minimal m : forallb rfc_minimal_size (wire_frames m) = true.
Proof.
  induction m as [|f m IH]; [reflexivity|]. rewrite wire_frames_cons. cbn [forallb]. rewrite IH.
  unfold rfc_minimal_size. cbn [wf_long wf_body mk_wf]. rewrite eqb_reflx. reflexivity.
Qed.

Lemma wire_frames_bodies m : map wf_body (wire_frames m) = m.
Proof.
  induction m as [|f m IH]; [reflexivity|]. rewrite wire_frames_cons. cbn [map wf_body mk_wf].
  rewrite IH. reflexivity.
Qed.

Theorem greeting_roundtrip g : parse_greeting (encode_greeting g) = Ok g.
Proof. destruct g as [a b [] []]; vm_compute; reflexivity. Qed.

Definition prop_ok (kv : bytes * bytes) : Prop :=
  let '(k, v) := kv in
  1 <= lenN k /\ lenN k <= 255 /\ forallb is_name_char k = true /\ lenN v < 2 ^ 32.

Lemma prop_bytes_eq k v : prop_bytes (k, v) = be 1 (lenN k) ++ k ++ be 4 (lenN v) ++ v.
Proof. reflexivity. Qed.

Lemma prop_bytes_len k v : lenN (prop_bytes (k, v)) = 5 + lenN k + lenN v.
Proof. rewrite prop_bytes_eq, !lenN_app, !lenN_be. lia. Qed.

Lemma rfc_metadata_encode props : Forall prop_ok props ->
  forall fuel, (length props < fuel)%nat ->
  rfc_metadata fuel (flat_map prop_bytes props) = Some props.
Proof.
  induction props as [|[k v] ps IH]; intros Hall fuel Hfuel; (destruct fuel as [|fuel]; [lia|]); [reflexivity|].
  inversion Hall as [|? ? Hkv Hps]; subst. destruct Hkv as (Hk1 & Hk2 & Hkc & Hv). cbn [length] in Hfuel.
  cbn [flat_map]. rewrite prop_bytes_eq, be_1 by lia. rewrite <- !app_assoc. cbn [app rfc_metadata].
  destruct (N.eqb_spec (lenN k) 0); [lia|]. cbn [orb].
  rewrite lenN_app_ltb, firstnN_app_exact, skipnN_app_exact, Hkc. cbn [negb].
  destruct (sized_field 4 v (flat_map prop_bytes ps) Hv) as (A & B & C & D). cbv zeta in A, B, C, D.
  change (N.of_nat 4) with 4 in A. rewrite A, B, C, D, IH by (assumption || lia). reflexivity.
Qed.

Lemma rfc_command_body_ready props : Forall prop_ok props ->
  rfc_command_body (ready_body props) = Some (ascii_READY, props).
Proof.
  intros H. unfold ready_body.
  change (be 1 (lenN ascii_READY)) with [lenN ascii_READY]. cbn [app rfc_command_body].
  change (lenN ascii_READY =? 0) with false. cbn [orb].
  set (md := flat_map prop_bytes props).
  change (82 :: 69 :: 65 :: 68 :: 89 :: md) with (ascii_READY ++ md).
  rewrite lenN_app_ltb, firstnN_app_exact, skipnN_app_exact.
  change (forallb is_alpha ascii_READY) with true. cbn [negb].
  subst md. rewrite rfc_metadata_encode; [reflexivity|assumption|].
  rewrite app_length. clear H. induction props as [|[k v] ps IH]; cbn [flat_map length]; [lia|].
  pose proof (prop_bytes_len k v) as L. unfold lenN in L. rewrite app_length. lia.
Qed.

Lemma rfc_frame_command body rest : lenN body < 2 ^ 64 ->
  rfc_frame (encode_command body ++ rest) =
    Some ({| wf_cmd := true; wf_long := 255 <? lenN body; wf_more := false; wf_body := body |}, rest).
Proof.
  intros Hl. unfold encode_command.
  change Gen.cmd_short_max with 255. change Gen.cmd_flag_long with 6. change Gen.cmd_flag_short with 4.
  change (N.to_nat Gen.cmd_long_width) with 8%nat.
  destruct (N.ltb_spec 255 (lenN body)); cbn [app]; rewrite <- app_assoc.
  - apply (rfc_frame_sized 6 true true false); [reflexivity|exact Hl].
  - apply (rfc_frame_sized 4 true false false); [reflexivity|]. change (256 ^ 1) with 256. lia.
Qed.

Theorem ready_is_rfc props : Forall prop_ok props -> lenN (ready_body props) < 2 ^ 64 ->
  rfc_command (encode_ready props) = Some (ascii_READY, props).
Proof.
  intros Hp Hl. unfold rfc_command, encode_ready.
  rewrite <- (app_nil_r (encode_command (ready_body props))).
  rewrite rfc_frame_command by assumption.
  cbn [wf_cmd andb]. unfold rfc_minimal_size. cbn [wf_long wf_body]. rewrite eqb_reflx.
  apply rfc_command_body_ready. assumption.
Qed.

(** READY as the library builds it: Socket-Type and, when configured, Identity, in any order. *)
Definition small (kv : bytes * bytes) : Prop := lenN (fst kv) <= 255 /\ lenN (snd kv) <= 255.

Lemma ready_body_len_bound props : Forall small props -> (length props <= 2)%nat -> lenN (ready_body props) < 2 ^ 64.
Proof.
  intros Hall Hn. unfold ready_body. rewrite !lenN_app.
  change (lenN (be 1 (lenN ascii_READY))) with 1. change (lenN ascii_READY) with 5.
  assert (lenN (flat_map prop_bytes props) <= 515 * lenN props) as Hb.
  { clear Hn. induction Hall as [|[k v] ps [Hk Hv] _ IH]; cbn [flat_map fst snd] in *; [rewrite !lenN_nil; lia|].
    rewrite lenN_app, prop_bytes_len, lenN_cons. lia. }
  assert (2000 < 2 ^ 64) by reflexivity. unfold lenN in *. lia.
Qed.

Definition id_ok (idopt : option bytes) : Prop :=
  match idopt with Some i => lenN i <= 255 | None => True end.

Theorem ready_lib_is_rfc st idopt props' :
  Permutation props' (ready_props st idopt) -> id_ok idopt ->
  rfc_command (encode_ready props') = Some (ascii_READY, props').
Proof.
  intros Hperm Hid.
  assert (Forall (fun kv => prop_ok kv /\ small kv) (ready_props st idopt)) as H.
  { constructor; [destruct st; vm_compute; intuition congruence|].
    destruct idopt as [i|]; constructor; [|constructor]. cbn [id_ok] in Hid.
    unfold prop_ok, small. cbn [fst snd]. change (lenN ascii_Identity) with 8.
    assert (255 < 2 ^ 32) by reflexivity. repeat split; try reflexivity; lia. }
  apply (Permutation_Forall (Permutation_sym Hperm)) in H. apply Forall_and_inv in H as [Hok Hsmall].
  apply ready_is_rfc; [exact Hok|]. apply ready_body_len_bound; [exact Hsmall|].
  rewrite (Permutation_length Hperm). destruct idopt; cbn [ready_props length]; lia.
Qed.

(** Non-vacuity of [wf_msg]: frame lengths 0, 255, 256. *)
Example wf_example :
  let m := [[]; repeat 7 255; repeat 9 256] in
  wf_msg m /\ length (encode_frames m) = 524%nat /\ rfc_message (encode_frames m) = Some (m, []).
Proof.
  cbv zeta. split; [|split].
  - split; [congruence|]. repeat constructor; vm_compute; congruence.
  - vm_compute. reflexivity.
  - vm_compute. reflexivity.
Qed.
