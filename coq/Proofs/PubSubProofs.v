(** Proofs about PUB / XPUB subscription bookkeeping and filtering, and the SUB socket's
    subscription announcements (Model/World.v against Spec/PrefixMultiset.v). *)
From Coq Require Import List NArith Lia Bool Arith.
From ZV Require Import Base.Bytes Base.Res Spec.PrefixMultiset Model.Codec Model.World Proofs.BytesProofs Proofs.WorldBasics.
Import ListNotations.
Open Scope N_scope.

Definition bytes_dec : forall a b : bytes, {a = b} + {a <> b} := list_eq_dec N.eq_dec.

Lemma count_occ_cons_eqb : forall x l t,
  count_occ bytes_dec (x :: l) t = if bytes_eqb x t then S (count_occ bytes_dec l t) else count_occ bytes_dec l t.
Proof.
  intros x l t. cbn [count_occ]. destruct (bytes_dec x t), (bytes_eqb_spec x t); first [reflexivity | contradiction].
Qed.

Lemma count_occ_remove_first : forall l x t,
  count_occ bytes_dec (remove_first x l) t =
  if bytes_eqb x t then Nat.pred (count_occ bytes_dec l t) else count_occ bytes_dec l t.
Proof.
  induction l as [|y l IH]; intros x t; cbn [remove_first]; [destruct (bytes_eqb x t); reflexivity|].
  destruct (bytes_eqb_spec y x) as [->|Nyx]; rewrite !count_occ_cons_eqb; [destruct (bytes_eqb x t); reflexivity|].
  rewrite IH. destruct (bytes_eqb_spec y t), (bytes_eqb_spec x t); first [reflexivity | congruence].
Qed.

(** on a duplicate-free list the publisher's "cancel one occurrence" is the subscriber's "remove" *)
Lemma remove_first_filter : forall t l, NoDup l ->
  remove_first t l = filter (fun x => negb (bytes_eqb x t)) l.
Proof.
  intros t l H. induction H as [|x l Hx Hnd IH]; cbn [remove_first filter]; [reflexivity|].
  destruct (bytes_eqb_spec x t) as [->|E]; cbn [negb]; [|rewrite IH; reflexivity].
  clear IH Hnd. induction l as [|y l IH]; cbn [filter]; [reflexivity|].
  destruct (bytes_eqb_spec y t) as [->|_]; cbn [negb]; [exfalso; apply Hx; left; reflexivity|].
  rewrite <- IH; [reflexivity|]. intros H. apply Hx. right. exact H.
Qed.

Lemma on_sub_msg_classify : forall subs m,
  on_sub_msg subs m =
  match classify m with SSub t => subs ++ [t] | SUnsub t => remove_first t subs | SNoise => subs end.
Proof.
  intros subs [|[|b t] [|g r]]; try reflexivity. unfold on_sub_msg, classify.
  change Gen.pub_op_sub with 1. change Gen.pub_op_unsub with 0.
  destruct (b =? 1); [reflexivity|]. destruct (b =? 0); reflexivity.
Qed.

Lemma on_sub_msg_count : forall subs m t,
  count_occ bytes_dec (on_sub_msg subs m) t = count_step t (count_occ bytes_dec subs t) m.
Proof.
  intros subs m t. rewrite on_sub_msg_classify. unfold count_step.
  destruct (classify m); [apply count_occ_snoc|apply count_occ_remove_first|reflexivity].
Qed.

Lemma fold_refines : forall h subs t,
  count_occ bytes_dec (fold_left on_sub_msg h subs) t =
  fold_left (count_step t) h (count_occ bytes_dec subs t).
Proof.
  induction h as [|m h IH]; intros subs t; cbn [fold_left]; [reflexivity|].
  rewrite IH, on_sub_msg_count. reflexivity.
Qed.

Theorem list_refines_multiset : forall h t,
  count_occ bytes_dec (fold_left on_sub_msg h []) t = count h t.
Proof. intros h t. unfold count. apply (fold_refines h [] t). Qed.

Theorem is_prefix_spec : forall p l, is_prefix p l = true <-> exists r, l = p ++ r.
Proof.
  induction p as [|x p IH]; intros l; cbn [is_prefix].
  - split; [intros _; exists l; reflexivity|intros _; reflexivity].
  - destruct l as [|y l].
    + split; [discriminate|intros [r H]; discriminate].
    + rewrite andb_true_iff, N.eqb_eq, IH. split.
      * intros [-> [r ->]]. exists r. reflexivity.
      * intros [r H]. inversion H; subst. split; [reflexivity|exists r; reflexivity].
Qed.

Theorem matches_spec : forall subs first,
  matches subs first = true <-> exists t r, In t subs /\ first = t ++ r.
Proof.
  intros subs first. unfold matches. rewrite existsb_exists. split.
  - intros [t [Hin Hp]]. apply is_prefix_spec in Hp. destruct Hp as [r ->].
    exists t, r. split; [exact Hin|reflexivity].
  - intros (t & r & Hin & ->). exists t. split; [exact Hin|].
    apply is_prefix_spec. exists r. reflexivity.
Qed.

Theorem deliver_iff : forall h first,
  matches (fold_left on_sub_msg h []) first = true <-> should_deliver h first.
Proof.
  intros h first. rewrite matches_spec. unfold should_deliver, active.
  split; intros (t & r & H & ->); exists t, r; (split; [|reflexivity]).
  - rewrite <- list_refines_multiset.
    apply (proj1 (count_occ_In bytes_dec (fold_left on_sub_msg h []) t)). exact H.
  - rewrite <- list_refines_multiset in H.
    apply (proj2 (count_occ_In bytes_dec (fold_left on_sub_msg h []) t)). exact H.
Qed.

Lemma fold_get (g : world -> N -> world) (f : N -> conn -> conn) :
  (forall w k j, get_conn j (w_conns (g w k)) =
                 if j =? k then option_map (f k) (get_conn k (w_conns w)) else get_conn j (w_conns w)) ->
  forall ks, NoDup ks -> forall w j,
  get_conn j (w_conns (fold_left g ks w)) =
  if memN j ks then option_map (f j) (get_conn j (w_conns w)) else get_conn j (w_conns w).
Proof.
  intros Hg. induction 1 as [|a ks Hnotin _ IH]; intros w j; cbn [fold_left]; [reflexivity|].
  rewrite IH, memN_cons, !Hg. destruct (N.eqb_spec j a) as [->|_]; [|reflexivity].
  destruct (memN a ks) eqn:E; [|reflexivity]. apply memN_In in E. contradiction.
Qed.

Definition pub_step (m : msg) (first : bytes) : world -> N -> world :=
  fun acc k =>
    match get_conn k (w_conns acc) with
    | Some c => if matches (c_subs c) first then write_msg acc k m else acc
    | None => acc
    end.

Definition pub_conn (m : msg) (first : bytes) (c : conn) : conn :=
  if matches (c_subs c) first then c_with_wire c (c_wire c ++ encode_frames m) else c.

Lemma pub_conn_spec m first c :
  c_subs (pub_conn m first c) = c_subs c /\
  c_wire (pub_conn m first c) = c_wire c ++ (if matches (c_subs c) first then encode_frames m else []).
Proof.
  unfold pub_conn. destruct (matches (c_subs c) first); split; try reflexivity. symmetry. apply app_nil_r.
Qed.

Lemma pub_step_get m first w k j :
  get_conn j (w_conns (pub_step m first w k)) =
  if j =? k then option_map (pub_conn m first) (get_conn k (w_conns w)) else get_conn j (w_conns w).
Proof.
  unfold pub_step, pub_conn. destruct (get_conn k (w_conns w)) as [c|] eqn:G; cbn [option_map].
  - destruct (matches (c_subs c) first); [rewrite write_msg_get, G; reflexivity|].
    destruct (N.eqb_spec j k) as [->|]; [exact G|reflexivity].
  - destruct (N.eqb_spec j k) as [->|]; [exact G|reflexivity].
Qed.

Lemma pub_step_tables m first w k : same_tables w (pub_step m first w k).
Proof.
  unfold pub_step. destruct (get_conn k (w_conns w)) as [c|]; [|apply same_tables_refl].
  destruct (matches (c_subs c) first); [apply write_msg_tables|apply same_tables_refl].
Qed.

(* one publish offers the message to each subscriber at most once: exactly once when one of its
   subscriptions matches (even if several do), not at all otherwise; nobody else's wire changes *)
Theorem publish_exactly_once : forall w first rest, NoDup (w_peers w) ->
  forall k c, get_conn k (w_conns w) = Some c ->
  exists c', get_conn k (w_conns (publish w (first :: rest))) = Some c' /\
    c_subs c' = c_subs c /\
    c_wire c' = c_wire c ++ (if memN k (w_peers w) && matches (c_subs c) first then encode_frames (first :: rest) else []).
Proof.
  intros w first rest Hnd k c Hg. change (publish w (first :: rest)) with (fold_left (pub_step (first :: rest) first) (w_peers w) w).
  rewrite (fold_get _ _ (pub_step_get (first :: rest) first) _ Hnd), Hg.
  destruct (memN k (w_peers w)); cbn [option_map andb].
  - eexists. split; [reflexivity|apply pub_conn_spec].
  - exists c. split; [reflexivity|]. split; [reflexivity|]. symmetry. apply app_nil_r.
Qed.

Theorem publish_tables_unchanged : forall w m, w_peers (publish w m) = w_peers w /\ w_type (publish w m) = w_type w.
Proof.
  intros w m. destruct m as [|first rest]; [split; reflexivity|].
  destruct (fold_upd_at_tables _ (pub_step_tables (first :: rest) first) (w_peers w) w) as (T & P & _).
  split; assumption.
Qed.

Lemma write_fold_get m ks : NoDup ks -> forall w j,
  get_conn j (w_conns (fold_left (fun acc k => write_msg acc k m) ks w)) =
  if memN j ks then option_map (fun c => c_with_wire c (c_wire c ++ encode_frames m)) (get_conn j (w_conns w))
  else get_conn j (w_conns w).
Proof. apply (fold_get _ (fun _ c => c_with_wire c (c_wire c ++ encode_frames m))). intros w k j. apply write_msg_get. Qed.

Lemma write_fold_tables m ks w : same_tables w (fold_left (fun acc k => write_msg acc k m) ks w).
Proof. apply fold_upd_at_tables. intros w0 k. apply write_msg_tables. Qed.

Lemma write_fold_subs m ks w : w_subs (fold_left (fun acc k => write_msg acc k m) ks w) = w_subs w.
Proof. apply (write_fold_tables m ks w). Qed.

Lemma write_fold_told m ks w k c : NoDup ks -> In k ks -> get_conn k (w_conns w) = Some c ->
  exists c', get_conn k (w_conns (fold_left (fun acc k => write_msg acc k m) ks w)) = Some c' /\
             c_wire c' = c_wire c ++ encode_frames m.
Proof.
  intros Hnd Hin Hg. rewrite write_fold_get by exact Hnd. rewrite (proj2 (memN_In k ks) Hin), Hg.
  eexists. split; reflexivity.
Qed.

Theorem sub_set_semantics : forall w t,
  (forall x, In x (w_subs (snd (step w (OSub t)))) <-> x = t \/ In x (w_subs w)) /\
  (forall x, In x (w_subs (snd (step w (OUnsub t)))) <-> x <> t /\ In x (w_subs w)).
Proof.
  intros w t. split; intros x; unfold step;
    destruct (existsb (bytes_eqb t) (w_subs w)) eqn:E; cbn [negb]; cbv zeta; cbn [snd];
    rewrite ?write_fold_subs; wsimp.
  - apply existsb_bytes_In in E. split; [auto|]. intros [->|H]; assumption.
  - rewrite in_app_iff. cbn [In]. intuition congruence.
  - rewrite filter_In, negb_true_iff. destruct (bytes_eqb_spec x t); intuition congruence.
  - split; [|intros [_ H]; exact H]. intros H. split; [|exact H].
    intros ->. apply existsb_bytes_In in H. congruence.
Qed.

Lemma attach_self : forall w c ann, w_type w = SUB ->
  exists cn, get_conn c (w_conns (do_attach w c ann)) = Some cn /\
    c_wire cn = concat (map (fun t => encode_frames [1 :: t]) (w_subs w)).
Proof. intros w c ann Ht. rewrite do_attach_get, N.eqb_refl, Ht. eexists. split; reflexivity. Qed.

(** [c] may be attached already: [attach_self] *)
Theorem sub_late_joiner_gets_all : forall w c ann, w_type w = SUB -> get_conn c (w_conns w) = None ->
  exists cn, get_conn c (w_conns (do_attach w c ann)) = Some cn /\
    c_wire cn = concat (map (fun t => encode_frames [1 :: t]) (w_subs w)).
Proof. intros w c ann Ht _. exact (attach_self w c ann Ht). Qed.

Print Assumptions list_refines_multiset.
Print Assumptions deliver_iff.
Print Assumptions publish_exactly_once.
Print Assumptions sub_late_joiner_gets_all.
