(** C17 / C18 / C20: lemmas over the bookkeeping models of Model/Runtime.v; the property theorems
    need a few lines each on top of them and are proved in Properties/. *)
From ZV Require Import Base.Bytes Base.Res Model.Codec Model.Handshake Model.Runtime Proofs.BytesProofs.
(* Properties/C20.v reaches [Decoder] through this file *)
From ZV Require Proofs.Decoder.

(** [Runtime.memN], [Runtime.delN]: the model's second copies of World's *)
Lemma memN_delN j k l : memN j (delN k l) = negb (j =? k) && memN j l.
Proof. apply existsb_eqb_filter. Qed.

Lemma memN_delN_same k l : memN k (delN k l) = false.
Proof. rewrite memN_delN, N.eqb_refl. reflexivity. Qed.

Lemma memN_delN_other j k l : j <> k -> memN j (delN k l) = memN j l.
Proof. intros H. rewrite memN_delN. apply N.eqb_neq in H. rewrite H. reflexivity. Qed.

Lemma delN_absent k l : memN k l = false -> delN k l = l.
Proof.
  unfold memN, delN. induction l as [|x l IH]; cbn [existsb filter]; intros H; [reflexivity|].
  apply orb_false_elim in H. destruct H as [Hx Hl].
  rewrite N.eqb_sym, Hx, (IH Hl). reflexivity.
Qed.

(** C18: bind map and listening endpoints stay equal *)
Lemma bstep_table_exact s o : b_table s = b_os s -> b_table (fst (bstep s o)) = b_os (fst (bstep s o)).
Proof.
  intros H. destruct o as [[e|]| |e]; cbn [bstep]; try exact H.
  - cbn [fst b_table b_os]. rewrite H. reflexivity.
  - destruct (memN e (b_table s)); [|exact H].
    cbn [fst b_table b_os]. rewrite H. reflexivity.
Qed.

Lemma find_task_upd_other f j l k :
  (forall t, h_id (f t) = h_id t) -> j <> k -> find_task k (upd_task f j l) = find_task k l.
Proof.
  intros Hf H. induction l as [|t r IH]; [reflexivity|]. cbn [upd_task map find_task].
  destruct (N.eqb_spec (h_id t) j) as [E|E].
  - rewrite Hf. destruct (N.eqb_spec (h_id t) k); [congruence|]. exact IH.
  - destruct (h_id t =? k); [reflexivity|exact IH].
Qed.

Lemma find_task_app_found k l x t : find_task k l = Some t -> find_task k (l ++ x) = Some t.
Proof.
  induction l as [|y r IH]; [discriminate|]. cbn [app find_task]. destruct (h_id y =? k); [auto|exact IH].
Qed.

Definition concerns (e : aev) (j : N) : bool :=
  match e with ABytes j' _ | AClose j' | ARun j' => j' =? j | _ => false end.

(** C20: task j's record is touched only by events addressed to connection j *)
Theorem others_do_not_touch_task : forall rr fq w e j t, concerns e j = false ->
  find_task j (a_tasks w) = Some t -> find_task j (a_tasks (astep rr fq w e)) = Some t.
Proof.
  intros rr fq w e j t Hc Hf.
  assert (Hupd : forall f j', (j' =? j) = false -> (forall x, h_id (f x) = h_id x) ->
            find_task j (upd_task f j' (a_tasks w)) = Some t).
  { intros f j' Hj Hid. apply N.eqb_neq in Hj. rewrite find_task_upd_other by assumption. exact Hf. }
  destruct e as [|j' b|j'|j'|]; cbn [astep concerns] in *.
  - destruct (a_stopped w); [exact Hf|]. cbn [a_tasks]. apply find_task_app_found. exact Hf.
  - apply Hupd; [exact Hc|]. intros x. destruct (h_eof x); reflexivity.
  - apply Hupd; [exact Hc|reflexivity].
  - destruct (find_task j' (a_tasks w)) as [t'|]; [|exact Hf].
    destruct (h_done t'); [exact Hf|].
    destruct (handshake_verdict (a_local w) (h_chunks t') (h_eof t')); try exact Hf.
    all: apply Hupd; [exact Hc|reflexivity].
  - exact Hf.
Qed.

