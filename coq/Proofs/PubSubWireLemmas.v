(** Lemmas for Proofs/PubSubWire.v: the SUB socket's wire as a list of subscription messages whose
    replay gives exactly its set; what a PUB or XPUB socket publishes to its one subscriber ([xconn]); the
    PUB socket with one subscriber as a concrete world, whose per-subscriber reader consumes every message
    that has arrived. *)
From Coq Require Import List Arith NArith Lia Bool.
From ZV Require Import Model.Codec Model.World Proofs.BytesProofs Proofs.CodecEnc Proofs.Decoder Proofs.PubSubProofs Proofs.LifecycleProofs Proofs.WorldStreamDefs Proofs.WorldStreamLemmas Proofs.WorldWireLemmas Proofs.WorldBasics.
Import ListNotations.
Open Scope N_scope.

Definition wexec (w : world) (ops : list op) : world := fold_left (fun w o => snd (World.step w o)) ops w.

Definition sub_ok (o : op) : Prop :=
  match o with OSub t | OUnsub t => bytes_ok t = true /\ lenN t + 1 < 2 ^ 64 | _ => False end.

Lemma wexec_cons w o l : wexec w (o :: l) = wexec (snd (World.step w o)) l.
Proof. reflexivity. Qed.

Lemma wexec_app w l1 l2 : wexec w (l1 ++ l2) = wexec (wexec w l1) l2.
Proof. apply wfinal_app. Qed.

Lemma wf_sub_msg b t : b < 256 -> bytes_ok t = true -> lenN t + 1 < 2 ^ 64 -> wf_msg [b :: t].
Proof.
  intros Hb Ht Hl. split; [discriminate|]. constructor; [|constructor].
  split.
  - unfold bytes_ok in *. cbn [forallb]. rewrite Ht. unfold byte_ok.
    apply N.ltb_lt in Hb. rewrite Hb. reflexivity.
  - rewrite lenN_cons. lia.
Qed.

Lemma sub_ok_peers : forall h w, Forall sub_ok h -> w_peers (wexec w h) = w_peers w.
Proof.
  induction h as [|o h IH]; intros w Hh; [reflexivity|]. inversion Hh as [|? ? Ho Hh']; subst.
  rewrite wexec_cons, IH by exact Hh'.
  destruct o; cbn [sub_ok] in Ho; try contradiction; unfold World.step;
    destruct (existsb _ (w_subs w)); cbn [negb snd]; try reflexivity; apply (write_fold_tables _ _ (with_subs w _)).
Qed.

(** SUB side, packaged: the invariant of Proofs/LifecycleProofs.v with "well formed" as what is known of each
    message told to the one peer *)
Lemma sub_side k h c : Forall sub_ok h ->
  get_conn k (w_conns (wexec (world0 SUB) (OAttach k None :: h))) = Some c ->
  exists msgs, c_wire c = concat (map encode_frames msgs) /\ Forall wf_msg msgs /\
    fold_left on_sub_msg msgs [] = w_subs (wexec (world0 SUB) (OAttach k None :: h)).
Proof.
  intros Hh Hg.
  destruct (sub_inv_exec wf_msg (OAttach k None :: h) _ (sub_inv_world0 _)) as (_ & _ & _ & _ & Hall).
  { constructor; [exact I|]. revert Hh. apply Forall_impl.
    intros [] Ho; try contradiction; destruct Ho; apply wf_sub_msg; (reflexivity || assumption). }
  destruct (Hall k) as (cn & msgs & G & W & F & S).
  { rewrite wexec_cons, sub_ok_peers by exact Hh. apply memN_In. left. reflexivity. }
  change (exec (world0 SUB) (OAttach k None :: h)) with (wexec (world0 SUB) (OAttach k None :: h)) in *.
  rewrite G in Hg. injection Hg as <-. exists msgs. split; [exact W|]. split; [exact F|exact S].
Qed.

Definition xconn (j : N) (subs : list bytes) (w : world) : Prop :=
  w_peers w = [j] /\ exists c, get_conn j (w_conns w) = Some c /\ c_subs c = subs /\ c_wire c = [].

Lemma publish_one j subs w m : w_type w = PUB \/ w_type w = XPUB -> xconn j subs w -> m <> [] ->
  World.run w [OSend m; OWire j] =
  [BSendOk; BWire j (if matches subs (hd [] m) then encode_frames m else [])].
Proof.
  intros T (P & c & G & S & W) Hm. destruct m as [|first rest]; [congruence|]. cbn [hd].
  assert (NoDup (w_peers w)) as Hnd by (rewrite P; constructor; [intros []|constructor]).
  destruct (publish_exactly_once w first rest Hnd j c G) as (c2 & G2 & _ & W2).
  rewrite P in W2. cbn [memN existsb] in W2. rewrite N.eqb_refl, W, S in W2. cbn [orb andb app] in W2.
  assert (World.step w (OSend (first :: rest)) = ([BSendOk], publish w (first :: rest))) as E
    by (unfold World.step; destruct T as [-> | ->]; reflexivity).
  rewrite run_cons, E. cbn [World.run World.step app]. rewrite G2, W2. reflexivity.
Qed.

Definition pubw (j : N) (c : conn) : world :=
  {| w_type := PUB; w_conns := [c]; w_peers := [j]; w_rr := []; w_heap := []; w_counter := 0;
     w_streams := []; w_reg := []; w_cur := None; w_env := None; w_subs := [] |}.

Definition mkc (j : N) (inq : list bytes) : conn :=
  {| c_id := j; c_ann := None; c_inq := inq; c_eof := false; c_dec := dec_post_greeting; c_buf := [];
     c_wire := []; c_subs := []; c_rd := true; c_wr := true |}.

Lemma get_pubw j c : c_id c = j -> get_conn j (w_conns (pubw j c)) = Some c.
Proof. intros H. cbn [pubw w_conns get_conn]. rewrite H, N.eqb_refl. reflexivity. Qed.

Lemma upd_pubw j c c' : c_id c = c_id c' -> upd_conn (pubw j c) c' = pubw j c'.
Proof.
  intros H. unfold upd_conn, with_conns, set_w, pubw.
  cbn [w_conns put_conn w_type w_peers w_rr w_heap w_counter w_streams w_reg w_cur w_env w_subs].
  rewrite H, N.eqb_refl. reflexivity.
Qed.

Lemma pub_feeds j : forall chunks inq rest,
  wexec (pubw j (mkc j inq)) (map (OFeed j) chunks ++ rest) =
  wexec (pubw j (mkc j (inq ++ nonnil chunks))) rest.
Proof.
  induction chunks as [|b chunks IH]; intros inq rest; cbn [map app].
  - cbn [nonnil filter]. rewrite app_nil_r. reflexivity.
  - rewrite wexec_cons. cbn [World.step snd].
    assert (do_feed (pubw j (mkc j inq)) j b = pubw j (mkc j (inq ++ nonnil [b]))) as ->.
    { unfold do_feed. rewrite get_pubw by reflexivity.
      destruct b as [|x b]; cbn [is_nil orb mkc c_eof nonnil filter negb]; [rewrite app_nil_r; reflexivity|].
      rewrite upd_pubw by reflexivity. reflexivity. }
    rewrite IH, <- app_assoc, <- nonnil_cons. reflexivity.
Qed.

Lemma rx_mkc j inq : rx (mkc j inq) inq [].
Proof.
  split; [split; [reflexivity|cbn [mkc c_dec dec_post_greeting waiting]; lia]|]. split; [reflexivity|].
  unfold eager, eag. cbn [mkc c_dec c_buf c_inq feed_all app]. fold reader_pg.
  rewrite (feed_nil reader_pg settled_reader_pg).
  destruct (feed_all reader_pg inq) as [os r]. reflexivity.
Qed.

Lemma reader_run j ch : forall (ms : list msg) fuel c os,
  c_id c = j -> c_rd c = true -> rx c ch os -> expected ch false = os ++ map OI ms ->
  (length ms < fuel)%nat ->
  exists c', pub_reader fuel (pubw j c) j = pubw j c' /\ c_id c' = j /\
    c_subs c' = fold_left on_sub_msg ms (c_subs c) /\ c_wire c' = c_wire c.
Proof.
  induction ms as [|m ms IH]; intros fuel c os Hid Hrd Hrx He Hf;
    (destruct fuel as [|f]; [lia|]); cbn [pub_reader]; rewrite (get_pubw j c Hid), Hrd; cbn [negb map] in *.
  - destruct (rx_poll c ch os [] Hrx He) as (c' & HP & _).
    destruct (poll_keeps _ _ _ _ HP) as ((I & _ & _ & W & S & _) & _). rewrite HP.
    exists c'. split; [apply upd_pubw; congruence|]. split; [congruence|]. split; [exact S|exact W].
  - destruct (rx_poll c ch os _ Hrx He) as (c' & HP & Hrx').
    destruct (poll_keeps _ _ _ _ HP) as ((I & _ & _ & W & S & _) & R & _). rewrite HP. unfold OI.
    cbn [pubw w_peers memN existsb]. rewrite N.eqb_refl. cbn [orb].
    rewrite upd_pubw by (cbn [c_with_subs c_id]; congruence).
    destruct (IH f (c_with_subs c' (on_sub_msg (c_subs c') m)) (os ++ [OI m])) as (c2 & R2 & I2 & S2 & W2).
    + cbn [c_with_subs c_id]. congruence.
    + cbn [c_with_subs c_rd]. congruence.
    + exact Hrx'.
    + rewrite <- app_assoc. exact He.
    + cbn [length] in Hf. lia.
    + exists c2. split; [exact R2|]. split; [exact I2|]. split.
      * rewrite S2. cbn [c_with_subs c_subs fold_left]. rewrite S. reflexivity.
      * rewrite W2. exact W.
Qed.

Lemma msgs_le_bytes : forall ms, Forall wf_msg ms ->
  (length ms <= length (concat (map encode_frames ms)))%nat.
Proof.
  induction ms as [|m ms IH]; intros H; [cbn; lia|].
  inversion H as [|? ? [Hne _] Hms]; subst. cbn [map concat length]. rewrite app_length.
  pose proof (encode_frames_length m) as L. specialize (IH Hms).
  destruct m as [|f m]; [congruence|]. cbn [length] in L. lia.
Qed.

Lemma pub_side j chunks msgs : Forall wf_msg msgs -> concat chunks = concat (map encode_frames msgs) ->
  w_type (wexec (world0 PUB) (OAttach j None :: map (OFeed j) chunks ++ [OSettle])) = PUB /\
  xconn j (fold_left on_sub_msg msgs []) (wexec (world0 PUB) (OAttach j None :: map (OFeed j) chunks ++ [OSettle])).
Proof.
  intros Hwf Hc. rewrite wexec_cons. change (snd (World.step (world0 PUB) (OAttach j None))) with (pubw j (mkc j [])).
  rewrite pub_feeds. cbn [app]. rewrite wexec_cons.
  change (snd (World.step (pubw j (mkc j (nonnil chunks))) OSettle))
    with (pub_reader (S (S (conn_bytes (mkc j (nonnil chunks))))) (pubw j (mkc j (nonnil chunks))) j).
  assert (concat (nonnil chunks) = concat (map encode_frames msgs)) as Hci by (rewrite concat_nonnil; exact Hc).
  destruct (reader_run j (nonnil chunks) msgs (S (S (conn_bytes (mkc j (nonnil chunks))))) (mkc j (nonnil chunks)) [])
    as (c' & R & I & S & W); try reflexivity.
  - apply rx_mkc.
  - exact (expected_encodings msgs _ Hwf Hci).
  - unfold conn_bytes. cbn [mkc c_inq c_buf length]. rewrite Hci.
    pose proof (msgs_le_bytes msgs Hwf) as Hle. unfold msg, bytes in *. lia.
  - cbn [wexec fold_left]. rewrite R. split; [reflexivity|]. split; [reflexivity|].
    exists c'. split; [apply get_pubw; exact I|]. split; [exact S|exact W].
Qed.
