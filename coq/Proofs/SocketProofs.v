(** Proofs about the socket-layer model (Model/World.v): envelopes (C07), REQ/REP lock-step (C08),
    ROUTER routing (C09), round-robin distribution (C10). *)
From Coq Require Import List NArith Lia.
From ZV Require Import Base.Bytes Base.Res Model.Codec Model.World Proofs.BytesProofs Proofs.WorldBasics
  Proofs.PushDistribution.
Import ListNotations.
Open Scope N_scope.

(* [bytes] and [list N] are the same type but different atoms for [lia] *)
Ltac ulia := unfold msg, bytes in *; lia.

(* case analysis on the comparison in the goal or, failing that, in a hypothesis *)
Ltac case_ltb H :=
  match goal with
  | |- context [N.ltb ?a ?b] => destruct (N.ltb_spec a b) as [H|H]
  | H0 : context [N.ltb ?a ?b] |- _ => destruct (N.ltb_spec a b) as [H|H]
  end.
Ltac case_leb H :=
  match goal with
  | |- context [Nat.leb ?a ?b] => destruct (Nat.leb_spec a b) as [H|H]
  | H0 : context [Nat.leb ?a ?b] |- _ => destruct (Nat.leb_spec a b) as [H|H]
  end.

(** * C07: envelopes *)
Definition nonempty_frames (ids : msg) : Prop := Forall (fun f => f <> []) ids.

Theorem req_unwrap_strips_exactly : forall r, r <> [] -> req_unwrap ([] :: r) = Ok r.
Proof.
  intros r Hr. unfold req_unwrap. change Gen.req_min_frames with 2.
  destruct r as [|x r]; [congruence|].
  rewrite !lenN_cons.
  case_ltb Hl; [ulia|]. reflexivity.
Qed.

Theorem req_unwrap_ok_inv : forall w r, req_unwrap w = Ok r -> w = [] :: r /\ r <> [].
Proof.
  intros w r H. unfold req_unwrap in H. change Gen.req_min_frames with 2 in H.
  case_ltb Hl; [discriminate|].
  destruct w as [|f rest]; [discriminate|].
  destruct f; cbn [is_nil] in H; [|discriminate].
  inversion H; subst. split; [reflexivity|].
  intros ->. unfold lenN in Hl. cbn [length] in Hl. ulia.
Qed.

Lemma is_nil_false {A} (f : list A) : f <> [] -> is_nil f = false.
Proof. destruct f; [congruence|reflexivity]. Qed.

Lemma find_empty_app : forall ids p, nonempty_frames ids ->
  find_empty (ids ++ [] :: p) = Some (length ids).
Proof.
  intros ids p H. induction H as [|f ids Hf Hids IH]; [reflexivity|].
  cbn [app find_empty length]. rewrite (is_nil_false f Hf), IH. reflexivity.
Qed.

Lemma rep_split_at : forall ids p, nonempty_frames ids ->
  rep_split (ids ++ [] :: p) = match p with [] => Err EOther | _ => Ok (ids ++ [[]], p) end.
Proof.
  intros ids p Hids. unfold rep_split. change Gen.rep_min_frames with 2.
  rewrite find_empty_app by assumption. cbv zeta.
  destruct p as [|x p]; rewrite app_length, lenN_app, !lenN_cons; cbn [length].
  - case_ltb Hl; [reflexivity|]. case_leb Hl2; [reflexivity|ulia].
  - case_ltb Hl; [ulia|]. case_leb Hl2; [ulia|].
    change ([] :: x :: p) with ([[]] ++ x :: p). rewrite app_assoc.
    rewrite firstn_app_exact, skipn_app_exact by (rewrite app_length; cbn [length]; ulia). reflexivity.
Qed.

Theorem rep_split_exact : forall ids p, nonempty_frames ids -> p <> [] ->
  rep_split (ids ++ [] :: p) = Ok (ids ++ [[]], p).
Proof. intros ids p Hids Hp. rewrite rep_split_at by assumption. destruct p; [congruence|reflexivity]. Qed.

Theorem rep_split_never_zero_frames : forall w env data,
  rep_split w = Ok (env, data) -> data <> [] /\ env ++ data = w /\ env <> [].
Proof.
  intros w env data H. unfold rep_split in H. change Gen.rep_min_frames with 2 in H.
  case_ltb Hl; [discriminate|].
  cbv zeta in H.
  set (at_ := match find_empty w with Some i => S i | None => 1%nat end) in *.
  assert (Hat : (1 <= at_)%nat) by (subst at_; destruct (find_empty w); ulia).
  case_leb Hl2; [discriminate|]. injection H as <- <-.
  split; [|split; [apply firstn_skipn|]]; intros E; apply (f_equal (@length _)) in E;
    rewrite ?skipn_length, ?firstn_length in E; cbn [length] in E; ulia.
Qed.

(** without [nonempty_frames ids], [rep_split (ids ++ [[]]) = Err EOther] ([rep_split_at] with no payload) is
    false: an identity stack that itself contains an empty frame is cut at that frame *)
Lemma rep_split_delimiter_last_refused_counterexample :
  exists ids, rep_split (ids ++ [[]]) = Ok ([[]], [[]]).
Proof. exists [[]]. reflexivity. Qed.

Lemma get_conn_put_same : forall c l, (exists c0, get_conn (c_id c) l = Some c0) ->
  get_conn (c_id c) (put_conn c l) = Some c.
Proof. intros c l _. apply get_put_same. reflexivity. Qed.

Theorem write_msg_others_unchanged : forall w k m j, j <> k ->
  get_conn j (w_conns (write_msg w k m)) = get_conn j (w_conns w).
Proof. intros w k m j Hj. rewrite write_msg_get. destruct (N.eqb_spec j k); [contradiction|reflexivity]. Qed.

Definition conns_ok (w : world) : Prop := forall k c, get_conn k (w_conns w) = Some c -> c_id c = k.

(** [conns_ok] holds of every world: lookup compares [c_id] *)
Lemma conns_ok_get : forall w, conns_ok w.
Proof. intros w k c H. eapply get_conn_id; eassumption. Qed.

Lemma conns_ok_put_conn : forall w c, conns_ok w -> conns_ok (with_conns w (put_conn c (w_conns w))).
Proof. intros; apply conns_ok_get. Qed.
Lemma conns_ok_upd_conn : forall w c, conns_ok w -> conns_ok (upd_conn w c).
Proof. intros; apply conns_ok_get. Qed.
Lemma conns_ok_write_msg : forall w k m, conns_ok w -> conns_ok (write_msg w k m).
Proof. intros; apply conns_ok_get. Qed.

(** * C08: lock-step decision rules *)
Theorem req_send_out_of_turn : forall w k m, w_type w = REQ -> w_cur w = Some k ->
  step w (OSend m) = ([BSendErr EReturnToSender (Some m)], w).
Proof. intros w k m Ht Hc. unfold step. rewrite Ht, Hc. reflexivity. Qed.

Lemma recv_req_idle w : w_cur w = None -> recv_req w = (BRecvErr EOther, w).
Proof. intros Hc. unfold recv_req. rewrite Hc. reflexivity. Qed.

Theorem req_recv_out_of_turn : forall w, w_type w = REQ -> w_cur w = None ->
  step w ORecv = ([BRecvErr EOther], w).
Proof. intros w Ht Hc. rewrite (step_recv_req w Ht), (recv_req_idle w Hc). reflexivity. Qed.

Theorem rep_send_without_request : forall w m, w_type w = REP -> w_cur w = None ->
  step w (OSend m) = ([BSendErr EReturnToSender (Some m)], w).
Proof. intros w m Ht Hc. unfold step. rewrite Ht, Hc. reflexivity. Qed.

Theorem rep_reply_goes_to_requester : forall w k m, w_type w = REP -> w_cur w = Some k -> memN k (w_peers w) = true ->
  step w (OSend m) = ([BSendOk], with_cur (write_msg w k (rep_wrap (w_env w) m)) None None).
Proof. intros w k m Ht Hc Hm. unfold step. rewrite Ht, Hc, Hm. reflexivity. Qed.

Lemma send_rr_req_ok : forall fuel w m w', w_type w = REQ -> send_rr fuel w m = (BSendOk, w') ->
  exists k, w_cur w' = Some k /\ memN k (w_peers w) = true.
Proof.
  induction fuel as [|f IH]; intros w m w' Ht H; cbn [send_rr] in H; [discriminate|].
  destruct (w_rr w) as [|k rest]; [discriminate|]. cbv zeta in H. wsimp in H.
  destruct (memN k (w_peers w)) eqn:Hm; [|exact (IH (with_rr w rest) _ _ Ht H)].
  rewrite Ht in H. injection H as <-. exists k. split; [reflexivity|exact Hm].
Qed.

Theorem req_send_ok_alternates : forall w m w', w_type w = REQ -> step w (OSend m) = ([BSendOk], w') ->
  w_cur w = None /\ exists k, w_cur w' = Some k /\ memN k (w_peers w) = true.
Proof.
  intros w m w' Ht H. unfold step in H. rewrite Ht in H.
  destruct (w_cur w) as [k0|]; [discriminate|]. split; [reflexivity|].
  destruct (send_rr (S (length (w_rr w))) w m) as [b w''] eqn:E.
  injection H as -> ->. exact (send_rr_req_ok _ _ _ _ Ht E).
Qed.

Lemma step_recv_req_inv w b w' : w_type w = REQ -> step w ORecv = ([b], w') -> recv_req w = (b, w').
Proof.
  intros Ht H. rewrite (step_recv_req w Ht) in H. destruct (recv_req w) as [b0 w0].
  injection H as -> ->. reflexivity.
Qed.

Lemma recv_req_reply w k c c' r : w_cur w = Some k -> memN k (w_peers w) = true ->
  get_conn k (w_conns w) = Some c ->
  poll_stream (S (length (c_inq c))) c = (PItem (OItem (IMessage ([] :: r))), c') -> r <> [] ->
  recv_req w = (BRecv None r, with_cur (upd_conn w c') None (w_env w)).
Proof.
  intros Hc Hp Hg HP Hr. unfold recv_req. rewrite Hc, Hp, Hg, HP. cbn [negb]. cbv zeta.
  rewrite (req_unwrap_strips_exactly r Hr). reflexivity.
Qed.

Lemma recv_req_spec w k b w' : w_cur w = Some k -> recv_req w = (b, w') ->
  (forall j, j <> k -> get_conn j (w_conns w') = get_conn j (w_conns w)) /\
  match b with
  | BRecv _ _ => w_cur w' = None
  | BRecvPending => w_cur w' = w_cur w /\ w_peers w' = w_peers w /\ w_rr w' = w_rr w
  | _ => True
  end.
Proof.
  intros Hc H. unfold recv_req in H. rewrite Hc in H.
  destruct (negb (memN k (w_peers w))); [injection H as <- <-; auto|].
  destruct (get_conn k (w_conns w)) as [c|] eqn:Eg; [|injection H as <- <-; auto].
  destruct (poll_stream (S (length (c_inq c))) c) as [p c'] eqn:Ep.
  assert (forall j, j <> k -> get_conn j (put_conn c' (w_conns w)) = get_conn j (w_conns w)) as Hput.
  { intros j Hj. apply get_put_other. rewrite (poll_id _ _ _ _ Ep), (get_conn_id _ _ _ Eg). congruence. }
  assert (forall w0 j, j <> k -> get_conn j (w_conns (peer_disconnected w0 k)) = get_conn j (w_conns w0)) as Hpd.
  { intros w0 j Hj. rewrite pd_get. destruct (N.eqb_spec j k); [contradiction|reflexivity]. }
  (* [poll_stream] never yields a panic or an end item; [recv_req] answers both with [BRecvErr EOther] *)
  destruct p as [[[g|ps|m]|e|s|]| |]; try destruct (req_unwrap m); injection H as <- <-;
    (split; [intros j Hj; rewrite ?Hpd by exact Hj; first [exact (Hput j Hj)|reflexivity]|cbv iota; auto]).
Qed.

(** * C09: ROUTER *)
Theorem router_route_unknown : forall w c m, w_type w = ROUTER -> memN c (w_peers w) = false ->
  step w (OSendTo c m) = ([BSendErr EOther None], w).
Proof. intros w c m Ht Hm. unfold step. rewrite Ht, Hm. reflexivity. Qed.

Lemma find_all_false {A} (f : A -> bool) l : (forall x, In x l -> f x = false) -> find f l = None.
Proof.
  induction l as [|x t IH]; intros H; cbn [find]; [reflexivity|].
  rewrite (H x (or_introl eq_refl)). apply IH. intros y Hy. apply H. right. exact Hy.
Qed.

Theorem router_route_by_bytes_unknown : forall w id rest, w_type w = ROUTER -> rest <> [] ->
  (forall c, In c (w_conns w) -> c_ann c <> Some id \/ memN (c_id c) (w_peers w) = false) ->
  exists e, step w (OSend (id :: rest)) = ([BSendErr e None], w).
Proof.
  intros w id rest Ht Hr H. unfold step. rewrite Ht.
  rewrite (is_nil_false rest Hr).
  destruct (Gen.max_id <? lenN id); [eexists; reflexivity|].
  rewrite find_all_false; [eexists; reflexivity|].
  intros c Hin. destruct (H c Hin) as [Ha|Hm].
  - destruct (c_ann c) as [b|]; [|reflexivity].
    destruct (bytes_eqb b id) eqn:Eb; [|reflexivity].
    apply bytes_eqb_eq in Eb. congruence.
  - destruct (c_ann c); [|reflexivity]. rewrite Hm, andb_false_r. reflexivity.
Qed.

(** * C10: round robin *)
Definition live (w : world) (k : N) : Prop := memN k (w_peers w) = true.

Theorem send_rr_no_live_peer : forall fuel w m, (forall k, In k (w_rr w) -> memN k (w_peers w) = false) ->
  exists w', send_rr fuel w m = (BSendErr EReturnToSender (Some m), w') /\ w_conns w' = w_conns w /\ w_peers w' = w_peers w.
Proof.
  induction fuel as [|f IH]; intros w m H; cbn [send_rr]; [exists w; auto|].
  destruct (w_rr w) as [|k rest] eqn:Er; [exists w; auto|]. cbv zeta. wsimp.
  rewrite (H k (or_introl eq_refl)).
  apply (IH (with_rr w rest) m). intros k' Hk'. apply H. right. exact Hk'.
Qed.

Fixpoint sends (w : world) (ms : list msg) : list obs * world :=
  match ms with [] => ([], w) | m :: t => let '(b, w1) := send_rr (S (length (w_rr w))) w m in let '(bs, w2) := sends w1 t in (b :: bs, w2) end.

Lemma rr_inv_sends t cs base : NoDup cs -> cs <> [] -> forall ms done w, rr_inv t (fun _ => True) cs base done w ->
  exists w', sends w ms = (map (fun _ => BSendOk) ms, w') /\
             rr_inv t (fun _ => True) cs base (done ++ ms) w' /\ w_peers w' = w_peers w.
Proof.
  intros Hnd Hne. induction ms as [|m ms IH]; intros done w Hw; cbn [sends map].
  - exists w. rewrite app_nil_r. auto.
  - destruct (rr_inv_send t _ cs base (fun _ _ _ => I) Hnd Hne done w m (length (w_rr w)) Hw) as (w1 & S1 & Hw1 & P1 & _).
    destruct (IH _ _ Hw1) as (w' & S & Hw' & P).
    exists w'. rewrite S1, S, <- app_assoc in *. split; [reflexivity|]. split; [exact Hw'|congruence].
Qed.

(** one full round: the closed form of Proofs/PushDistribution.v with as many messages as queue members *)
Theorem rr_full_rotation : forall w ms, w_type w <> REQ -> NoDup (w_rr w) ->
  (forall k, In k (w_rr w) -> memN k (w_peers w) = true /\ exists c, get_conn k (w_conns w) = Some c) ->
  length ms = length (w_rr w) ->
  exists w', sends w ms = (map (fun _ => BSendOk) ms, w') /\ w_rr w' = w_rr w /\ w_peers w' = w_peers w /\
    (forall i k m, nth_error (w_rr w) i = Some k -> nth_error ms i = Some m ->
       exists c c', get_conn k (w_conns w) = Some c /\ get_conn k (w_conns w') = Some c' /\ c_wire c' = c_wire c ++ encode_frames m).
Proof.
  intros w ms Ht Hnd Hlive Hlen.
  destruct (w_rr w) as [|k0 cs0] eqn:Ecs.
  { destruct ms; [|discriminate]. exists w. repeat split; auto. intros [|i] k m H; discriminate H. }
  rewrite <- Ecs in *. set (cs := w_rr w) in *.
  assert (cs <> []) as Hne by (rewrite Ecs; discriminate).
  set (base k := match get_conn k (w_conns w) with Some c => c_wire c | None => [] end).
  assert (rr_inv (w_type w) (fun _ => True) cs base [] w) as H0.
  { split; [reflexivity|]. split; [|split; [intros k Hk; apply Hlive, Hk|]].
    - cbn [length]. rewrite Nat.mod_0_l, rot_0 by (rewrite Ecs; discriminate). reflexivity.
    - intros i k Hi. destruct (Hlive k (nth_error_In _ _ Hi)) as [_ [c Hc]].
      exists c. split; [exact Hc|]. split; [exact I|]. unfold base. rewrite Hc. symmetry. apply app_nil_r. }
  destruct (rr_inv_sends _ cs base Hnd Hne ms [] w H0) as (w' & S & (_ & R' & _ & C') & P').
  exists w'. split; [exact S|]. split; [|split; [exact P'|]].
  - rewrite R'. cbn [app]. rewrite Hlen, Nat.mod_same, rot_0 by (rewrite Ecs; discriminate). reflexivity.
  - intros i k m Hi Hm. destruct (Hlive k (nth_error_In _ _ Hi)) as [_ [c Hc]].
    destruct (C' i k Hi) as (c' & Hc' & _ & W'). exists c, c'. split; [exact Hc|]. split; [exact Hc'|].
    rewrite W'. unfold base. cbn [app]. rewrite Hc, share_round, Hm by lia. cbn [map concat].
    rewrite app_nil_r. destruct (w_type w); try reflexivity. congruence.
Qed.

Print Assumptions rep_split_exact.
Print Assumptions rep_reply_goes_to_requester.
Print Assumptions rr_full_rotation.
